(* C19 - The state transition is deterministic and survives restart.           PARTIAL PROOF.

   Full statement wanted: two nodes that process the same blocks from the same genesis compute the same
   application hash and transaction results after every block regardless of map iteration order, goroutine
   timing or wall-clock time, and a node restarted from its database after any committed block continues
   with exactly the same hashes.

   What is proved (over the abstract node of Models/Restart.v, for ALL block lists, ALL restart points, ALL
   iteration orders, ALL deterministic step functions) and tied to the tree:
     - restart is invisible if the code has no memory cell            (table: keeper fields, package vars)
     - replicas agree whatever order each map range is visited in     (table: map ranges + instances)
     - no wall clock / randomness / goroutine / select / environment  (table: nd_sites)
   The tables are regenerated from the Go sources by tools/gotrans on every run of ./check.
   What is NOT proved and cannot be in Gallina: goroutine scheduling and the Go runtime, the SDK's stores
   (IAVL, cache layers), CometBFT; state hidden behind interface-typed fields; that every function of the
   tree is a deterministic function of its inputs beyond the constructs the translator searches for.
   Those are covered by the replicas of the correspondence run (harness/c19_test.go) only by execution. *)
From Coq Require Import String List Bool Permutation NArith ZArith.
From Elys Require Import Base.Res Models.Restart Models.Burner Generated.Determinism Proofs.RestartProofs Proofs.BurnerProofs.
Import ListNotations.

(* No field of any keeper / msg server / hooks wrapper holds state in memory: every field is wiring
   (interface, other keeper, store key, codec, callback) or a string/scalar assigned only by the constructor.
   Breaks when somebody adds a cache, a counter, a map, a slice or a pointer to data to a keeper. *)
Theorem C19_no_keeper_memory : forallb no_memory_state fields = true.
Proof. exact fields_ok. Qed.
Print Assumptions C19_no_keeper_memory.

(* No package-level variable of x/ and app/ is written outside init (three reviewed exceptions, see
   Models/Restart.v reviewed_vars: two test knobs nothing calls, and version.Version in the constructor). *)
Theorem C19_no_package_state : forallb var_ok pkgvars = true.
Proof. exact vars_ok. Qed.
Print Assumptions C19_no_package_state.

(* Every range over a map is order-free by the syntactic criterion (lookups, locals, building a map,
   exact commutative accumulation; or collecting into slices that are sorted afterwards), or is on the
   reviewed list with a commutativity instance. A NEW map range that writes state makes this false. *)
Theorem C19_map_ranges_reviewed : forallb range_ok map_ranges = true.
Proof. vm_compute. reflexivity. Qed.
Print Assumptions C19_map_ranges_reviewed.

Theorem C19_reviewed_ranges_have_instances :
  forallb (fun '(p, f, e, _) => existsb (fun '(p', f', e') => String.eqb p p' && String.eqb f f' && String.eqb e e') range_instances)
          reviewed_ranges = true.
Proof. vm_compute. reflexivity. Qed.
Print Assumptions C19_reviewed_ranges_have_instances.

(* time.Now only as the start time handed to a telemetry call; no math/rand, crypto/rand, unsafe, goroutine,
   select, environment lookup or %p anywhere in x/ and app/ (non-test, non-cli, non-simulation). *)
Theorem C19_no_nondeterminism_sources : forallb site_ok nd_sites = true.
Proof. exact sites_ok. Qed.
Print Assumptions C19_no_nondeterminism_sources.

(* For every block list, every set of restart points, every deterministic step function that can reach only
   the memory cells the tables list (the translator's completeness is the trusted part), and every order the
   runtime picks in the map ranges: the sequence of application hashes and of transaction results equals that
   of the run that is never restarted. *)
Theorem C19_restart_invisible_partial :
  forall (P T V R H K E : Type) (hash : P -> H) (t0 : T) (m0 : list V) (blocks : list (list (@op P T V R K E))),
    Forall (Forall (op_ok (length (memory_cells fields pkgvars)))) blocks ->
    forall (cuts : nat -> bool) (n : @node P T V) tr tr',
      run hash t0 m0 cuts 0 blocks n tr -> run hash t0 m0 (fun _ => false) 0 blocks n tr' ->
      map fst tr = map fst tr' /\ map snd tr = map snd tr'.
Proof.
  intros P T V R H K E hash t0 m0 blocks Hall cuts n tr tr' R1 R2.
  rewrite (restart_invisible fields pkgvars fields_ok vars_ok P T V R H K E hash t0 m0 blocks Hall cuts (fun _ => false) n tr tr' R1 R2).
  split; reflexivity.
Qed.
Print Assumptions C19_restart_invisible_partial.

(* The table hypothesis carries the weight: with ONE state-holding keeper field (a map used as a cache) there
   is a node whose step respects that cell and whose hashes differ once it is restarted. *)
Theorem C19_restart_visible_with_memory_refuted :
  no_memory_state cache_field = false /\
  Forall (Forall (op_ok (length (memory_cells [cache_field] [])))) leaky_blocks /\
  exists cuts tr tr',
    run (fun p : nat => p) tt [0%nat] cuts 0%nat leaky_blocks leaky_node tr /\
    run (fun p : nat => p) tt [0%nat] (fun _ => false) 0%nat leaky_blocks leaky_node tr' /\
    map fst tr <> map fst tr'.
Proof.
  split; [reflexivity|]. split; [exact leaky_blocks_ok|].
  exists (fun h => Nat.eqb h 1).
  exists (run_fun (fun p : nat => p) tt [0%nat] (fun h => Nat.eqb h 1) 0 leaky_blocks leaky_node).
  exists (run_fun (fun p : nat => p) tt [0%nat] (fun _ => false) 0 leaky_blocks leaky_node).
  split; [apply run_fun_runs|]. split; [apply run_fun_runs|]. vm_compute. discriminate.
Qed.
Print Assumptions C19_restart_visible_with_memory_refuted.

(* A loop body that commutes per key gives the same outcome for every two orders of the same map. *)
Theorem C19_order_irrelevant :
  forall (S K E : Type) (body : K -> E -> S -> res S) (entries l1 l2 : list (K * E)) (s : S),
    commutes body -> NoDup (map fst entries) -> Permutation l1 entries -> Permutation l2 entries ->
    fold_res body l1 (Ok s) = fold_res body l2 (Ok s).
Proof. exact @order_irrelevant. Qed.
Print Assumptions C19_order_irrelevant.

(* ... and without commutation it does not ("first one wins"). *)
Theorem C19_order_matters_without_commutation_refuted :
  fold_res first_wins [(1%nat, tt); (2%nat, tt)] (Ok None) <> fold_res first_wins [(2%nat, tt); (1%nat, tt)] (Ok None)
  /\ Permutation [(1%nat, tt); (2%nat, tt)] [(2%nat, tt); (1%nat, tt)] /\ NoDup (map fst [(1%nat, tt); (2%nat, tt)]).
Proof.
  split; [cbv; discriminate|]. split; [apply perm_swap|].
  repeat constructor; cbn; intuition discriminate.
Qed.
Print Assumptions C19_order_matters_without_commutation_refuted.

(* The instance for the one state-writing map range of the tree: the burner's per-denom burns; as an operation
   of the abstract node it satisfies the side condition of the determinism theorems, whatever the number of memory cells. *)
Theorem C19_burner_order_irrelevant :
  forall ts meta s l1 l2, burn_orders meta s l1 -> burn_orders meta s l2 -> burn_in_order ts l1 s = burn_in_order ts l2 s.
Proof. exact burner_order_irrelevant. Qed.
Print Assumptions C19_burner_order_irrelevant.

Theorem C19_burner_is_admissible_op :
  forall (T V : Type) (ncell : nat) ts meta, op_ok ncell (@burner_op T V ts meta).
Proof. intros T V ncell ts meta. split; [apply lift_commutes, burn_commutes|intros s; apply entries_nodup]. Qed.
Print Assumptions C19_burner_is_admissible_op.

(* "collect the keys, sort, iterate": the loop after the sort sees the same list whatever order the range
   delivered, for ANY body. *)
Theorem C19_sorted_keys_deterministic :
  forall (S : Type) (body : N -> S -> res S) (collected collected' : list N) (s : S),
    Permutation collected collected' -> sorted_loop body collected s = sorted_loop body collected' s.
Proof. exact @sorted_keys_deterministic. Qed.
Print Assumptions C19_sorted_keys_deterministic.

(* Two replicas, each with its own iteration orders, restarted at the same heights or never: same hashes and
   results after every block (this one holds even for code WITH memory cells). *)
Theorem C19_replicas_agree_partial :
  forall (P T V R H K E : Type) (hash : P -> H) (t0 : T) (m0 : list V) (ncell : nat) (blocks : list (list (@op P T V R K E))),
    Forall (Forall (op_ok ncell)) blocks ->
    forall (cuts : nat -> bool) (n : @node P T V) tr tr',
      run hash t0 m0 cuts 0 blocks n tr -> run hash t0 m0 cuts 0 blocks n tr' -> tr = tr'.
Proof.
  intros P T V R H K E hash t0 m0 ncell blocks Hall cuts n tr tr' R1 R2.
  exact (run_agree hash t0 m0 ncell blocks Hall cuts cuts (or_intror (fun _ => eq_refl)) 0 n n tr tr' (conj eq_refl eq_refl) R1 R2).
Qed.
Print Assumptions C19_replicas_agree_partial.

(* non-vacuity: the burner on a concrete state with two positive balances (both orders, successful burn) *)
Example C19_burner_example :
  burn_orders [1%N; 2%N; 3%N] demo_state [(1%N, 70%Z); (2%N, 5%Z)] /\
  burn_orders [1%N; 2%N; 3%N] demo_state [(2%N, 5%Z); (1%N, 70%Z)] /\
  is_ok (burn_in_order 9%N [(1%N, 70%Z); (2%N, 5%Z)] demo_state) = true /\
  burn_in_order 9%N [(1%N, 70%Z); (2%N, 5%Z)] demo_state = burn_in_order 9%N [(2%N, 5%Z); (1%N, 70%Z)] demo_state.
Proof. exact burner_two_denoms. Qed.
