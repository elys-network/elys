(* C03 - No swap gives the trader a better rate than the pool's reference price.
   Model in Models/AmmSwap.v (exact raw-integer model of x/amm/types CalcOutAmtGivenIn / CalcInAmtGivenOut /
   solveConstantFunctionInvariant / Pow / the oracle-pool value formulas / the bonus decision of UpdatePoolForSwap).
   Everything is over unbounded Z; PREC = 10^18, HALF = 5*10^17; fees, prices, ratios are raw 18-decimal integers.
   [rin p] / [rout p] are the effective in/out reserves (accounted-pool balance if positive, else the pool's own),
   [cp_eq p] = constant-product pool (use_oracle = false) with equal positive weights and non-negative reserves. *)
From Coq Require Import ZArith List Bool Lia.
From Elys Require Import Base.Res Base.Zdec Models.AmmSwap Proofs.AmmSwapProofs Proofs.AmmSwapProofs2.
From Elys Require Import Proofs.PowBounds Proofs.PowSeries Models.WeightFee Proofs.WeightFeeProofs Base.ResFacts.
Import ListNotations.
Open Scope Z_scope.

(* Exact-in, equal weights, every amount / reserve / fee in [0,1): with a' = a*(1-fee)
     out <= floor(B_out*a'/(B_in+a')) + floor(B_out/(2*10^18)) + floor(B_out/10^36) + 2.
   The B_out/(2*10^18) term is REAL (C03_one_unit_refuted): y = B_in/(B_in+a') is rounded to the nearest 10^-18
   and then multiplied by B_out. *)
Theorem C03_cp_equal_weight_out : forall p a fee out slip,
  cp_eq p -> 0 <= a -> 0 <= fee < PREC ->
  calc_out p a fee = Ok (out, slip) ->
  out <= (rout p * (a * (PREC - fee))) / (rin p * PREC + a * (PREC - fee))
         + rout p / (2 * PREC) + rout p / (PREC * PREC) + 2.
Proof.
  intros p a fee out slip Hp Ha [_ Hf%Z.lt_le_incl] H. pose proof Hp as (_ & _ & _ & _ & HBo).
  pose proof (calc_out_units p a fee out slip _ Hp Ha Hf H (units_floor (rout p) HBo)). lia.
Qed.
Print Assumptions C03_cp_equal_weight_out.

(* The same without floors (divisions cleared), two-sided, plus 0 < out <= B_out:
     out <= B_out*x/(B_in*P + x) + B_out*(HALF+1)/P^2     and    out > B_out*x/(B_in*P+x) - B_out*HALF/P^2 - 1,  x = a*(P-fee). *)
Theorem C03_cp_equal_weight_out_bounds : forall p a fee out slip,
  cp_eq p -> 0 <= a -> 0 <= fee < PREC ->
  calc_out p a fee = Ok (out, slip) ->
  Ub PREC (HALF + 1) (rin p) (rout p) (a * (PREC - fee)) out /\
  Lb PREC HALF (rin p) (rout p) (a * (PREC - fee)) out /\
  0 < rin p * PREC + a * (PREC - fee) /\ 0 < out <= rout p.
Proof. intros p a fee out slip Hp Ha [_ Hf%Z.lt_le_incl]. exact (calc_out_Ub p a fee out slip Hp Ha Hf). Qed.
Print Assumptions C03_cp_equal_weight_out_bounds.

(* The property's stated allowance - ONE base unit of the output token - holds for every out-reserve up to
   2*10^18 - 4 base units (B_out*(HALF+1) <= 10^36). *)
Theorem C03_cp_out_one_unit_below_2e18 : forall p a fee out slip,
  cp_eq p -> 0 <= a -> 0 <= fee < PREC ->
  calc_out p a fee = Ok (out, slip) ->
  rout p * (HALF + 1) <= PREC * PREC ->
  out <= (rout p * (a * (PREC - fee))) / (rin p * PREC + a * (PREC - fee)) + 1.
Proof.
  intros p a fee out slip Hp Ha [_ Hf%Z.lt_le_incl] H Hb. apply (calc_out_units p a fee out slip 1 Hp Ha Hf H). now rewrite Z.mul_1_l.
Qed.
Print Assumptions C03_cp_out_one_unit_below_2e18.

(* ... and is REFUTED above: reserves 3*10^21 : 3*10^21 (3000 tokens of an 18-decimals asset), weights 1:1, fee 0,
   10^18 in: the pool pays floor(exact) + 918. Replayed on the real CalcOutAmtGivenIn (harness/c03_test.go) AND through
   MsgCreatePool + MsgSwapExactAmountIn on the full application (harness/c03_app_test.go) in every run. *)
Theorem C03_one_unit_refuted :
  cp_eq (cp11 W_R W_R) /\
  exists out slip, calc_out (cp11 W_R W_R) 1000000000000000000 0 = Ok (out, slip) /\
    out = (W_R * (1000000000000000000 * PREC)) / (W_R * PREC + 1000000000000000000 * PREC) + 918.
Proof.
  split.
  - unfold cp_eq, cp11, ebal, W_R. simpl. repeat split; lia.
  - eexists. eexists. split; vm_compute; reflexivity.
Qed.
Print Assumptions C03_one_unit_refuted.

(* The product of the reserves never decreases by more than the same rounding:
   (B_in + a)(B_out - out) >= B_in*B_out - B_out*(B_in + a)*(HALF+1)/10^36. *)
Theorem C03_product_nondecreasing : forall p a fee out slip,
  cp_eq p -> 0 <= a -> 0 <= fee < PREC ->
  calc_out p a fee = Ok (out, slip) ->
  (rin p + a) * (rout p - out) * (PREC * PREC) >=
  rin p * rout p * (PREC * PREC) - rout p * (rin p + a) * (HALF + 1).
Proof.
  intros p a fee out slip Hp Ha [Hf0 Hf%Z.lt_le_incl] H. destruct (calc_out_Ub p a fee out slip Hp Ha Hf H) as (U & _ & HN & _).
  destruct Hp as (_ & _ & _ & HBi & HBo). pose proof PREC_pos as HP.
  pose proof (Ub_unscale PREC (HALF + 1) (rin p) (rout p) (a * (PREC - fee)) out (rin p) a HP HBi HBo HN U (Z.le_refl _) ltac:(nia) Ha (Z.add_nonneg_nonneg _ _ HBi Ha)). lia.
Qed.
Print Assumptions C03_product_nondecreasing.

(* Round trip A -> B -> A, any fees on either leg; the second leg runs on ANY equal-weight pool whose in-reserve is at
   least B_out - o1 and whose out-reserve is at most B_in + a (so: the pool after the first leg, with or without the
   fee skimmed to the treasury). The trader gets back at most a + 2*(B_in+a)*(HALF+1)/10^36, and NOTHING more than a
   when B_in + a < 10^18 - 1. *)
Theorem C03_round_trip_no_gain : forall p1 p2 a f1 f2 o1 s1 o2 s2,
  cp_eq p1 -> cp_eq p2 -> 0 <= a -> 0 <= f1 < PREC -> 0 <= f2 < PREC ->
  calc_out p1 a f1 = Ok (o1, s1) -> calc_out p2 o1 f2 = Ok (o2, s2) ->
  rout p1 - o1 <= rin p2 -> rout p2 <= rin p1 + a ->
  o2 * (PREC * PREC) <= a * (PREC * PREC) + 2 * (rin p1 + a) * (HALF + 1) /\
  (2 * (rin p1 + a) * (HALF + 1) < PREC * PREC -> o2 <= a).
Proof.
  intros p1 p2 a f1 f2 o1 s1 o2 s2 Hp1 Hp2 Ha [Hf10 Hf1%Z.lt_le_incl] [Hf20 Hf2%Z.lt_le_incl] C1 C2 HB1 HB2.
  destruct (calc_out_Ub p1 a f1 o1 s1 Hp1 Ha Hf1 C1) as (U1 & _ & HN1 & Ho1).
  destruct (calc_out_Ub p2 o1 f2 o2 s2 Hp2 ltac:(lia) Hf2 C2) as (U2 & _ & HN2 & _).
  destruct Hp1 as (_ & _ & _ & Hi1 & Hq1). destruct Hp2 as (_ & _ & _ & Hi2 & Hq2). pose proof PREC_pos as HP.
  pose proof (round_trip_arith PREC (HALF + 1) (rin p1) (rout p1) (a * (PREC - f1)) a o1 (rin p2) (rout p2)
                (o1 * (PREC - f2)) o2 HP ltac:(discriminate) Hi1 Ha ltac:(nia) HN1 U1 Ho1 Hi2 Hq2 ltac:(nia) HN2 U2
                HB1 HB2) as R.
  split; [exact R|]. clear - R HP. nia.
Qed.
Print Assumptions C03_round_trip_no_gain.

(* ... and above that size a round trip DOES gain: on 3*10^21 : 3*10^21 at zero fee 2000 units buy 3000, and the
   3000 swapped back return 3000 (the allowance of one base unit is exceeded by 999). *)
Theorem C03_round_trip_gain_refuted :
  exists s1 s2, calc_out (cp11 W_R W_R) 2000 0 = Ok (3000, s1) /\
                calc_out (cp11 (W_R - 3000) (W_R + 2000)) 3000 0 = Ok (3000, s2).
Proof. eexists. eexists. split; vm_compute; reflexivity. Qed.
Print Assumptions C03_round_trip_gain_refuted.

(* A trade split into two pieces (same fee; second piece on the pool after the first, in-reserve at least
   B_in + a1*(1-fee)) never beats the single trade by more than 1 + B_out*(3*HALF+2)/10^36 units, i.e. by more than one
   unit when B_out <= 6.6*10^17. *)
Theorem C03_split_no_gain : forall p p2 a1 a2 fee o s o1 s1 o2 s2,
  cp_eq p -> cp_eq p2 -> 0 <= a1 -> 0 <= a2 -> 0 <= fee < PREC ->
  calc_out p (a1 + a2) fee = Ok (o, s) -> calc_out p a1 fee = Ok (o1, s1) -> calc_out p2 a2 fee = Ok (o2, s2) ->
  rout p2 = rout p - o1 -> rin p * PREC + a1 * (PREC - fee) <= rin p2 * PREC ->
  (o1 + o2) * (PREC * PREC) < o * (PREC * PREC) + PREC * PREC + rout p * (3 * HALF + 2) /\
  (rout p * (3 * HALF + 2) <= PREC * PREC -> o1 + o2 <= o + 1).
Proof.
  intros p p2 a1 a2 fee o s o1 s1 o2 s2 Hp Hp2 Ha1 Ha2 [_ Hf%Z.lt_le_incl] C C1 C2 HB1 HB2.
  destruct (calc_out_Ub p (a1 + a2) fee o s Hp ltac:(lia) Hf C) as (_ & L & _ & _).
  destruct (calc_out_Ub p a1 fee o1 s1 Hp Ha1 Hf C1) as (U1 & _ & HN1 & Ho1).
  destruct (calc_out_Ub p2 a2 fee o2 s2 Hp2 Ha2 Hf C2) as (U2 & _ & _ & _).
  destruct Hp as (_ & _ & _ & Hi & Hq). pose proof PREC_pos as HP. rewrite HB1 in U2.
  replace ((a1 + a2) * (PREC - fee)) with (a1 * (PREC - fee) + a2 * (PREC - fee)) in L by ring.
  pose proof (split_arith PREC (HALF + 1) HALF (rin p) (rout p) (a1 * (PREC - fee)) (a2 * (PREC - fee)) o1 o2 o (rin p2)
                HP ltac:(discriminate) Hi Hq ltac:(nia) ltac:(nia) HN1 U1 ltac:(lia) HB2 U2 L) as R.
  replace (HALF + 2 * (HALF + 1)) with (3 * HALF + 2) in R by ring.
  split; [exact R|]. clear - R HP. nia.
Qed.
Print Assumptions C03_split_no_gain.

(* Exact-out, equal weights: the trader never pays less than the exact amount B_in*o/((B_out-o)(1-fee)) minus
   floor(B_in/(10^18 (1-fee))) + 2 units; cleared of divisions. *)
Theorem C03_cp_equal_weight_in : forall p o fee inn slip,
  use_oracle p = false -> w_in p = w_out p -> 0 < w_in p -> 0 <= o -> 0 <= fee < PREC -> 0 <= rin p ->
  calc_in p o fee = Ok (inn, slip) ->
  rin p * o * PREC < (inn + rin p / (PREC - fee) + 2) * ((rout p - o) * (PREC - fee)).
Proof.
  intros p o fee inn slip Hno Hw _ Ho Hf HBi H.
  pose proof (calc_in_equal_units p o fee inn slip Hno Hw Ho HBi H _ (in_units_floor (rin p) (PREC - fee) HBi ltac:(lia))).
  unfold rin, rout in *. lia.
Qed.
Print Assumptions C03_cp_equal_weight_in.

(* ... within ONE unit when B_in*10^18*(1+HALF) + (10^18-fee)(1+HALF) <= 10^36*(10^18-fee) (B_in <= 1.96*10^18 at 2% fee) *)
Theorem C03_cp_in_one_unit_below_bound : forall p o fee inn slip,
  use_oracle p = false -> w_in p = w_out p -> 0 < w_in p -> 0 <= o -> 0 <= fee < PREC -> 0 <= rin p ->
  calc_in p o fee = Ok (inn, slip) ->
  rin p * PREC * (1 + HALF) + (PREC - fee) * (1 + HALF) <= PREC * PREC * (PREC - fee) ->
  rin p * o * PREC < (inn + 1) * ((rout p - o) * (PREC - fee)).
Proof.
  intros p o fee inn slip Hno Hw _ Ho _ HBi H Hb.
  apply (calc_in_equal_units p o fee inn slip Hno Hw Ho HBi H 1). now rewrite Z.mul_1_l.
Qed.
Print Assumptions C03_cp_in_one_unit_below_bound.

(* ... and refuted above: on 3*10^21 : 3*10^21 at zero fee 4400 units are bought for 3000 (exact price 4400.000...006). *)
Theorem C03_one_unit_in_refuted :
  exists s, calc_in (cp11 W_R W_R) 4400 0 = Ok (3000, s) /\
            (W_R * 4400 * PREC) / ((W_R - 4400) * PREC) = 4400.
Proof. eexists. split; vm_compute; reflexivity. Qed.
Print Assumptions C03_one_unit_in_refuted.

(* Tier discounts only lower the fee within [0, fee]: every theorem above quantifies over all fees in [0,1). *)
Theorem C03_discounted_fee_in_range : forall fee d f',
  0 <= fee -> 0 <= d <= PREC -> apply_discount fee d = Ok f' -> 0 <= f' <= fee.
Proof.
  intros fee d f' Hf Hd H. unfold apply_discount in H. apply bind_chk in H. apply cmul_ok in H. subst f'.
  apply dmul_le_l; unfold ONE; lia.
Qed.
Print Assumptions C03_discounted_fee_in_range.

(* PARTIAL - unequal weights. Full statement (NOT proved): out <= B_out*(1 - (B_in/(B_in+a'))^(w_in/w_out))*(1+10^-8) + 1,
   i.e. Pow(y, r) >= y^r * (1 - 10^-8) for the fixed-point series of pow_approx.go (Pow IS modelled exactly and replayed
   against the Go code, but its real-analysis error bound is not proved). Proved for ALL weights: the payout is
   exactly trunc(B_out*(1 - pw)) with pw the value returned by Pow, hence bounded by ANY lower bound lb of pw;
   exact-out: the charge is at least B_in*(lb - 1) for any lb with 1 <= lb <= pw. *)
Theorem C03_weighted_out_partial : forall p a fee out slip,
  use_oracle p = false -> 0 <= rout p ->
  calc_out p a fee = Ok (out, slip) ->
  exists pw,
    pow (dquo (rin p * PREC) (rin p * PREC + a * (PREC - fee))) (dquo (w_in p * PREC) (w_out p * PREC)) = Ok pw /\
    out = trunc_int (rout p * (PREC - pw)) /\ 0 < out /\
    forall lb, lb <= pw -> out * PREC <= rout p * (PREC - lb).
Proof.
  intros p a fee out slip Hno HBo H.
  destruct (calc_out_inv p a fee out slip Hno H) as (_ & _ & pw & Hpw & Ho & Hpos).
  exists pw. split; [exact Hpw|]. split; [exact Ho|]. split; [exact Hpos|]. intros lb Hlb.
  rewrite Ho in *. apply trunc_int_pos_le in Hpos.
  assert (rout p * (PREC - pw) <= rout p * (PREC - lb)) by (apply Z.mul_le_mono_nonneg_l; lia).
  unfold rout in *. lia.
Qed.
Print Assumptions C03_weighted_out_partial.

Theorem C03_weighted_in_partial : forall p o fee inn slip,
  use_oracle p = false -> 0 <= rin p -> 0 <= fee < PREC ->
  calc_in p o fee = Ok (inn, slip) ->
  exists pw,
    pow (dquo (rout p * PREC) (rout p * PREC - o * PREC)) (dquo (w_out p * PREC) (w_in p * PREC)) = Ok pw /\
    inn = trunc_int (dceil (dquo (rin p * (pw - PREC)) (PREC - fee))) /\ 0 < inn /\
    forall lb, PREC <= lb <= pw -> rin p * (lb - PREC) <= inn * PREC.
Proof.
  intros p o fee inn slip Hno HBi Hf H.
  destruct (calc_in_inv p o fee inn slip Hno H) as (_ & _ & _ & pw & Hpw & Hi & Hpos).
  exists pw. split; [exact Hpw|]. split; [exact Hi|]. split; [exact Hpos|]. intros lb Hlb.
  assert (rin p * (lb - PREC) <= rin p * (pw - PREC)) by (apply Z.mul_le_mono_nonneg_l; lia).
  pose proof (charge_ge (rin p * (pw - PREC)) (PREC - fee) ltac:(nia) ltac:(lia)) as C.
  unfold rin in *. rewrite <- Hi in C. lia.
Qed.
Print Assumptions C03_weighted_in_partial.

(* ---------- weighted pools: what IS proved about Pow (Proofs/PowBounds.v, Proofs/PowSeries.v) ---------- *)

(* LegacyDec.Power (the integer path of Pow: square-and-multiply, one rounding Mul per step), n >= 1, base y >= 0,
   M any number >= max(y, 10^18):   2*10^18*y^n <= 2*pw*10^(18n) + (n-1)*M^n,  i.e.
     y <= 1:  pw >= y^n/10^(18(n-1)) - (n-1)/2        (at most (n-1)/2 units of 10^-18 below the exact power)
     y >= 1:  pw >= y^n*(1 - (n-1)/(2*10^18))/10^(18(n-1)). *)
Theorem C03_pow_integer_lower_bound : forall y M n pw,
  0 <= y <= M -> PREC <= M -> 1 <= n -> pow y (n * PREC) = Ok pw ->
  2 * PREC * y ^ n <= 2 * pw * PREC ^ n + (n - 1) * M ^ n /\ 0 <= pw.
Proof.
  intros y M n pw Hy HM Hn H. apply pow_integer in H; [|lia]. exact (power_lb y M Hy HM n pw Hn (proj2 H)).
Qed.
Print Assumptions C03_pow_integer_lower_bound.

(* FULL statement for constant-product pools whose weight ratio w_in/w_out is an integer n >= 1 (the fixture's 1:3
   pool swapped uelys -> uusdc; 1:2, 1:4, ... pools in that direction), exact-in, every amount / reserve / fee in [0,1]:
   with N = B_in*10^18 + a*(10^18 - fee) and y = the rounded base Quo(B_in, B_in + a') the code computes,
     (a) out <= B_out*(1 - (y/10^18)^n) + B_out*(n-1)/(2*10^18),
     (b) out <= B_out*(1 - (B_in*10^18/N)^n) + B_out*((2n-1)/2 + n*10^-18)/10^18     (exact rational power),
   both cleared of divisions; 0 < out <= B_out. For n = 1 (b) is C03_cp_equal_weight_out_bounds. The slack is REAL
   and exceeds one base unit of the output token once B_out*(2n-1) > 2*10^18 (C03_weighted_integer_one_unit_refuted). *)
Theorem C03_weighted_out_integer_ratio : forall p a fee out slip n,
  use_oracle p = false -> 0 < w_out p -> w_in p = n * w_out p -> 1 <= n ->
  0 <= rin p -> 0 <= rout p -> 0 <= a -> 0 <= fee <= PREC ->
  calc_out p a fee = Ok (out, slip) ->
  let N := rin p * PREC + a * (PREC - fee) in
  let y := dquo (rin p * PREC) N in
  (0 < N /\ 0 < y <= PREC /\ 0 < out <= rout p /\
   2 * out * PREC ^ n <= rout p * (2 * (PREC ^ n - y ^ n) + (n - 1) * PREC ^ (n - 1))) /\
  2 * out * (PREC * PREC) * N ^ n <=
    2 * rout p * (PREC * PREC) * (N ^ n - (rin p * PREC) ^ n) + rout p * N ^ n * ((2 * n - 1) * PREC + 2 * n).
Proof.
  intros p a fee out slip n Hno _ Hw Hn HBi HBo Ha [_ Hf] H. cbv zeta. split.
  - exact (int_ratio_out_base p a fee out slip n Hno Hw Hn HBi HBo Ha Hf H).
  - exact (int_ratio_out_exact p a fee out slip n Hno Hw Hn HBi HBo Ha Hf H).
Qed.
Print Assumptions C03_weighted_out_integer_ratio.

(* The stated allowance - ONE base unit above the floor of the exact constant-weighted-product amount - holds while
   B_out*((2n-1)*10^18 + 2n) <= 2*10^36  (n = 2: B_out <= 6.6*10^17, n = 3: <= 4*10^17 - 1, n = 4: <= 2.8*10^17). *)
Theorem C03_weighted_out_integer_ratio_one_unit : forall p a fee out slip n,
  use_oracle p = false -> 0 < w_out p -> w_in p = n * w_out p -> 1 <= n ->
  0 <= rin p -> 0 <= rout p -> 0 <= a -> 0 <= fee <= PREC ->
  calc_out p a fee = Ok (out, slip) ->
  rout p * ((2 * n - 1) * PREC + 2 * n) <= 2 * (PREC * PREC) ->
  let N := rin p * PREC + a * (PREC - fee) in
  out <= (rout p * (N ^ n - (rin p * PREC) ^ n)) / N ^ n + 1.
Proof.
  intros p a fee out slip n Hno _ Hw Hn HBi HBo Ha [_ Hf] H Hb.
  apply (int_ratio_out_units p a fee out slip n Hno Hw Hn HBi HBo Ha Hf H 1). now rewrite Z.mul_1_l.
Qed.
Print Assumptions C03_weighted_out_integer_ratio_one_unit.

(* ... and is exceeded above (same cause as C03_one_unit_refuted; part of the same known finding): reserves
   4*10^23 : 3*10^23, weights 3:1, fee 0, 10^18 in pays floor(exact) + 225176 (proved slack: 750000). *)
Theorem C03_weighted_integer_one_unit_refuted :
  let p := cp13 400000000000000000000000 300000000000000000000000 3 1 in
  let N := rin p * PREC + 1000000000000000000 * PREC in
  exists out slip, calc_out p 1000000000000000000 0 = Ok (out, slip) /\
    out = (rout p * (N ^ 3 - (rin p * PREC) ^ 3)) / N ^ 3 + 225176.
Proof. cbv zeta. eexists. eexists. split; vm_compute; reflexivity. Qed.
Print Assumptions C03_weighted_integer_one_unit_refuted.

(* Exact-out with an integer ratio w_out/w_in = n >= 1 (the 1:3 pool bought in the other direction): with
   R = B_out - o and y = the rounded base Quo(B_out, R) >= 1 the code computes,
     in >= B_in*((y/10^18)^n*(1 - (n-1)/(2*10^18)) - 1)    (the fee only raises the charge),
   and y > B_out/R*10^18 - (1/2 + 10^-18) (last conjunct). *)
Theorem C03_weighted_in_integer_ratio : forall p o fee inn slip n,
  use_oracle p = false -> 0 < w_in p -> w_out p = n * w_in p -> 1 <= n ->
  0 <= rin p -> 0 <= o -> 0 <= fee < PREC ->
  calc_in p o fee = Ok (inn, slip) ->
  let R := rout p - o in
  let y := dquo (rout p * PREC) (R * PREC) in
  0 < R /\ PREC <= y /\ 0 < inn /\
  rin p * ((2 * PREC - (n - 1)) * y ^ n - 2 * PREC * PREC ^ n) <= 2 * inn * PREC * PREC ^ n /\
  rout p * (PREC * PREC) < y * PREC * R + (HALF + 1) * R.
Proof.
  intros p o fee inn slip n Hno _ Hw Hn HBi Ho [Hf _]. exact (int_ratio_in_base p o fee inn slip n Hno Hw Hn HBi Ho Hf).
Qed.
Print Assumptions C03_weighted_in_integer_ratio.

(* Range of Pow for EVERY exponent e >= 0 (what makes the _partial theorems usable with lb = pw resp. lb = 0):
   - base in [1,2) (exact-out buying less than half of the out-reserve), or any base >= 1 when the fractional part of
     the exponent is 0 or 1/2: Pow >= 1, so the charge B_in*(pw - 1) is non-negative and C03_weighted_in_partial
     applies with lb = pw;
   - base in [0.5,1] with a fractional part other than 1/2, or any base in (0,1] with an integer exponent: 0 <= Pow <= 1.
   (ApproxSqrt: Newton iterates stay in [1,d]; Maclaurin series: alternating with non-increasing terms for a base >= 1;
   for a base in [0.5,1) all terms are subtracted and decay geometrically - ratio <= 1/4 then <= 0.51.) NOT covered: the ln/exp method (base outside [0.5,2), fractional exponent). *)
Theorem C03_pow_ge_one : forall y e pw,
  PREC <= y -> 0 <= e -> (y < TWO \/ Z.rem e PREC = 0 \/ Z.rem e PREC = HALF) ->
  pow y e = Ok pw -> PREC <= pw.
Proof. exact pow_ge_one. Qed.
Print Assumptions C03_pow_ge_one.

Theorem C03_pow_le_one : forall y e pw,
  0 < y <= PREC -> 0 <= e -> (Z.rem e PREC = 0 \/ (HALF <= y /\ Z.rem e PREC <> HALF)) ->
  pow y e = Ok pw -> 0 <= pw <= PREC.
Proof. intros y e pw [_ Hy]. exact (pow_range_le_one y e pw Hy). Qed.
Print Assumptions C03_pow_le_one.

(* hence, for ALL weights: when the rounded base y = Quo(B_in, B_in + a') is at least 1/2 (the amount in after fee does
   not exceed the in-reserve) and the fractional part of w_in/w_out is not 1/2 (or the ratio is an integer, any y),
   the payout is positive and within the out-reserve *)
Theorem C03_weighted_out_within_reserve : forall p a fee out slip,
  use_oracle p = false -> 0 <= rin p -> 0 <= rout p -> 0 <= a -> 0 <= fee <= PREC ->
  calc_out p a fee = Ok (out, slip) ->
  let y := dquo (rin p * PREC) (rin p * PREC + a * (PREC - fee)) in
  let r := dquo (w_in p * PREC) (w_out p * PREC) in
  0 <= r -> (Z.rem r PREC = 0 \/ (HALF <= y /\ Z.rem r PREC <> HALF)) ->
  0 < out <= rout p.
Proof.
  intros p a fee out slip Hno HBi HBo Ha Hfee Hcalc y r Hr Hc. pose proof PREC_pos as HP.
  destruct (calc_out_inv p a fee out slip Hno Hcalc) as (HN & _ & pw & Hpw & Ho & Hopos).
  fold (rin p) (rout p) in HN, Hpw, Ho. fold y r in Hpw.
  assert (Hy : 0 <= y <= PREC) by (apply dquo_le_one; [nia|exact HN]).
  destruct (pow_range_le_one y r pw (proj2 Hy) Hr Hc Hpw) as [P0 P1].
  split; [exact Hopos|]. rewrite Ho in *. apply trunc_int_pos_le in Hopos. nia.
Qed.
Print Assumptions C03_weighted_out_within_reserve.

(* exponent in [0,1] (w_in <= w_out): 1 <= Pow(y,e) <= y, so an exact-out trade on such a pool charges at most
   B_in*(y - 1) before fee and rounding - never more than the equal-weight pool would *)
Theorem C03_pow_between_one_and_base : forall y e pw,
  PREC <= y -> 0 <= e <= PREC -> (y < TWO \/ e = 0 \/ e = HALF \/ e = PREC) ->
  pow y e = Ok pw -> PREC <= pw <= y.
Proof. exact pow_le_base. Qed.
Print Assumptions C03_pow_between_one_and_base.

(* Oracle pools, exact-in (the whole of SwapOutAmtGivenIn: resize by the external-liquidity ratio, balancer slippage
   of the resized trade, value formula), for all prices, ratios, reserves, weight-breaking fee in [0,1] as resolved
   from the implementation, swap fee >= 0: value out <= value in + half of 10^-18 out-token. *)
Theorem C03_oracle_value_out_le_in : forall p a ratio wbf fee out s oo,
  0 <= a -> 0 <= ratio -> 0 <= wbf <= PREC -> 0 <= fee -> 0 <= price_in p -> 0 <= price_out p ->
  oracle_swap_out p a ratio wbf fee = Ok (out, s, oo) ->
  0 <= s /\ out * price_out p * (PREC * PREC) <= a * price_in p * (PREC * PREC) + HALF * price_out p.
Proof. exact oracle_swap_out_value. Qed.
Print Assumptions C03_oracle_value_out_le_in.

(* Oracle pools, exact-out: value charged > value received - (1/2 + 10^-18) * 10^-18 in-token. *)
Theorem C03_oracle_value_in_ge_out : forall p o ratio wbf fee inn s oi,
  0 <= o -> 0 <= ratio -> 0 <= wbf < PREC -> 0 <= fee -> 0 <= price_in p -> 0 <= price_out p ->
  oracle_swap_in p o ratio wbf fee = Ok (inn, s, oi) ->
  0 <= s /\ o * price_out p * (PREC * PREC) < inn * price_in p * (PREC * PREC) + (1 + HALF) * price_in p.
Proof. exact oracle_swap_in_value. Qed.
Print Assumptions C03_oracle_value_in_ge_out.

(* The value formulas alone, for EVERY slippage amount >= 0 and ratio >= 0 (not only the ones the kernels produce). *)
Theorem C03_oracle_formula_out : forall a pi po ratio slip wbf fee out oo,
  0 <= a -> 0 <= pi -> 0 < po -> 0 <= ratio -> 0 <= slip -> 0 <= wbf <= PREC -> 0 <= fee ->
  oracle_out a pi po ratio slip wbf fee = Ok (out, oo) ->
  out * po * (PREC * PREC) <= a * pi * (PREC * PREC) + HALF * po /\ out * PREC <= oo.
Proof. exact oracle_out_value. Qed.
Print Assumptions C03_oracle_formula_out.

Theorem C03_oracle_formula_in : forall o pi po ratio slip wbf fee inn oi,
  0 <= o -> 0 < pi -> 0 <= po -> 0 <= ratio -> 0 <= slip -> 0 <= wbf < PREC -> 0 <= fee ->
  oracle_in o pi po ratio slip wbf fee = Ok (inn, oi) ->
  o * po * (PREC * PREC) < inn * pi * (PREC * PREC) + (1 + HALF) * pi /\ oi <= inn * PREC.
Proof. exact oracle_in_value. Qed.
Print Assumptions C03_oracle_formula_in.

(* The rebalancing bonus: [bonus_paid] is the amount UpdatePoolForSwap sends FROM THE REBALANCE TREASURY (the source
   account of that transfer is checked on the real bank events by the harness): never negative, only for oracle pools
   with a positive bonus rate, never above the treasury balance, never above base*rate. *)
Theorem C03_bonus_from_treasury_capped : forall use_orc base bonus treasury b,
  bonus_paid use_orc base bonus treasury = Ok b ->
  0 <= b /\ (0 < b -> b <= treasury /\ use_orc = true /\ 0 < bonus /\ b * PREC <= base * bonus).
Proof. exact bonus_capped. Qed.
Print Assumptions C03_bonus_from_treasury_capped.

(* ---------- oracle pools with the WEIGHT-BREAKING FEE COMPUTED BY THE MODEL (Models/WeightFee.v) ----------
   The fee is not a parameter resolved from the implementation here: [oracle_swap_out_wf] / [oracle_swap_in_wf] are the whole
   of Pool.SwapOutAmtGivenIn / SwapInAmtGivenOut for oracle pools incl. GetOraclePoolNormalizedWeights, WeightDistanceFromTarget
   before and after the swap, GetWeightBreakingFee (Pow of the weight ratio, multiplier, 0.99 cap), the perpetual factor, the
   portion and the threshold. [assets] = accounted assets of the pool (any number), kin / kout = positions of the two swapped
   assets, [prm] = (multiplier, exponent, portion, threshold). [exp_int_or_half e]: e >= 0 with fractional part 0 or 1/2 (the
   chain's 2.5, C03_wbf_default_exponent): Pow is proved non-negative there (LegacyDec.Power and the Newton square root). *)

(* (a) GetWeightBreakingFee returns a value in [0, 0.99] (0.99 < 1): the hypothesis "wbf in [0,1]" of the theorems above is
   discharged for the modelled formula. Params.Validate enforces multiplier >= 0. *)
Theorem C03_wbf_in_range : forall prm fi fo ti to ii io dd f,
  0 <= wp_mult prm -> exp_int_or_half (wp_exp prm) ->
  get_wbf prm fi fo ti to ii io dd = Ok f -> 0 <= f <= WBF_CAP /\ WBF_CAP < PREC.
Proof.
  intros prm fi fo ti to ii io dd f Hm He H.
  split; [exact (get_wbf_range prm Hm (exp_ok_pow_nonneg _ He) _ _ _ _ _ _ _ _ H)|reflexivity].
Qed.
Print Assumptions C03_wbf_in_range.

(* PARTIAL for the other exponents. Full statement (NOT proved): the same for every exponent >= 0; it needs Pow >= 0 on the
   ln/exp and Maclaurin paths. Proved: for ANY exponent on which Pow never returns a negative value. *)
Theorem C03_wbf_in_range_partial : forall prm fi fo ti to ii io dd f,
  0 <= wp_mult prm -> pow_nonneg (wp_exp prm) ->
  get_wbf prm fi fo ti to ii io dd = Ok f -> 0 <= f <= WBF_CAP.
Proof. intros prm fi fo ti to ii io dd f Hm Hp. exact (get_wbf_range prm Hm Hp fi fo ti to ii io dd f). Qed.
Print Assumptions C03_wbf_in_range_partial.

Theorem C03_pow_nonneg_int_or_half_exponent : forall e y pw,
  0 <= e -> (Z.rem e PREC = 0 \/ Z.rem e PREC = HALF) -> pow y e = Ok pw -> 0 <= pw.
Proof. intros e y pw H0 H1. exact (exp_ok_pow_nonneg e (conj H0 H1) y pw). Qed.
Print Assumptions C03_pow_nonneg_int_or_half_exponent.

Example C03_wbf_default_exponent : exp_int_or_half 2500000000000000000.
Proof. split; [discriminate|right; reflexivity]. Qed.

(* the FULL oracle-pool statement, exact-in, fee computed by the model (no fee parameter): for all pool states, prices, ratios,
   params with multiplier, portion >= 0, perpetual factor in [0,1]: value out <= value in + half of 10^-18 out-token, and the
   bonus rate returned is at most 0.99 * portion *)
Theorem C03_oracle_value_out_le_in_with_fee : forall p assets kin kout a ratio perp fee prm out s oo bonus,
  0 <= wp_mult prm -> exp_int_or_half (wp_exp prm) -> 0 <= wp_portion prm -> 0 <= perp <= PREC ->
  0 <= a -> 0 <= ratio -> 0 <= fee -> 0 <= price_in p -> 0 <= price_out p ->
  oracle_swap_out_wf p assets kin kout a ratio perp fee prm = Ok (out, s, oo, bonus) ->
  0 <= s /\ out * price_out p * (PREC * PREC) <= a * price_in p * (PREC * PREC) + HALF * price_out p /\
  bonus <= dmul WBF_CAP (wp_portion prm).
Proof.
  intros p assets kin kout a ratio perp fee prm out s oo bonus Hm He Hpo Hpe Ha Hr Hf Hpi Hpout H.
  apply (oracle_swap_out_wf_spec prm Hm (exp_ok_pow_nonneg _ He) Hpo) in H
    as (wbf & _ & _ & _ & _ & Hs & _ & _ & _ & (R & B & _) & _); [|exact Hpe].
  pose proof WBF_CAP_lt_PREC as HC.
  destruct (oracle_swap_out_value p a ratio wbf fee out s oo Ha Hr ltac:(lia) Hf Hpi Hpout Hs). auto.
Qed.
Print Assumptions C03_oracle_value_out_le_in_with_fee.

Theorem C03_oracle_value_in_ge_out_with_fee : forall p assets kin kout o ratio perp fee prm inn s oi bonus,
  0 <= wp_mult prm -> exp_int_or_half (wp_exp prm) -> 0 <= wp_portion prm -> 0 <= perp <= PREC ->
  0 <= o -> 0 <= ratio -> 0 <= fee -> 0 <= price_in p -> 0 <= price_out p ->
  oracle_swap_in_wf p assets kin kout o ratio perp fee prm = Ok (inn, s, oi, bonus) ->
  0 <= s /\ o * price_out p * (PREC * PREC) < inn * price_in p * (PREC * PREC) + (1 + HALF) * price_in p /\
  bonus <= dmul WBF_CAP (wp_portion prm).
Proof.
  intros p assets kin kout o ratio perp fee prm inn s oi bonus Hm He Hpo Hpe Ho Hr Hf Hpi Hpout H.
  apply (oracle_swap_in_wf_spec prm Hm (exp_ok_pow_nonneg _ He) Hpo) in H
    as (wbf & _ & _ & _ & _ & Hs & _ & _ & _ & (R & B & _) & _); [|exact Hpe].
  pose proof WBF_CAP_lt_PREC as HC.
  destruct (oracle_swap_in_value p o ratio wbf fee inn s oi Ho Hr ltac:(lia) Hf Hpi Hpout Hs). auto.
Qed.
Print Assumptions C03_oracle_value_in_ge_out_with_fee.

(* (b) direction: with d0 / d1 the weight distance before / after the swap as the code computes them, the whole function IS
   the fee-parameterised one at some fee wbf, and
     d1 < d0  (improving): wbf = 0, the bonus is >= 0 and positive only if d0 was above the threshold;
     d1 >= d0 (not improving): bonus = - wbf <= 0 (the trader is charged, never rewarded);
     a positive bonus implies d1 < d0, d0 > threshold, no fee. *)
Theorem C03_fee_zero_when_improving : forall p assets kin kout a ratio perp fee prm out s oo bonus,
  0 <= wp_mult prm -> exp_int_or_half (wp_exp prm) -> 0 <= wp_portion prm -> 0 <= perp <= PREC ->
  oracle_swap_out_wf p assets kin kout a ratio perp fee prm = Ok (out, s, oo, bonus) ->
  exists wbf d0 after fin d1,
    oracle_swap_out p a ratio wbf fee = Ok (out, s, oo) /\
    weight_distance assets = Ok d0 /\
    after_swap assets 0 kin kout a after = Ok fin /\ weight_distance fin = Ok d1 /\
    (d1 < d0 -> wbf = 0 /\ 0 <= bonus /\ (0 < bonus -> wp_thr prm < d0)) /\
    (d0 <= d1 -> bonus = - wbf /\ bonus <= 0) /\
    (0 < bonus -> d1 < d0 /\ wp_thr prm < d0 /\ wbf = 0).
Proof.
  intros p assets kin kout a ratio perp fee prm out s oo bonus Hm He Hpo Hpe H.
  apply (oracle_swap_out_wf_spec prm Hm (exp_ok_pow_nonneg _ He) Hpo) in H
    as (wbf & d0 & af & fin & d1 & Hs & Hd0 & Hfin & Hd1 & (R & _ & C & D) & E); [|exact Hpe].
  exists wbf, d0, af, fin, d1.
  split; [exact Hs|]. split; [exact Hd0|]. split; [exact Hfin|]. split; [exact Hd1|]. lia.
Qed.
Print Assumptions C03_fee_zero_when_improving.

(* ... and POSITIVE when the distance grows (dd > 0) and the in-asset ends over-weight relative to the out-asset, i.e. the
   ratio x = finalWeightIn*targetWeightOut/finalWeightOut/targetWeightIn the code hands to Pow is >= 1: the fee is at least
   min(0.99, multiplier). (That a growing distance of a two-asset pool implies x >= 1 is real-number reasoning about the
   normalized weights; it is not proved here - the correspondence run reports the fee of every generated swap.) *)
Theorem C03_fee_positive_when_worsening : forall prm fi fo ti to ii io dd f x1 x2 x3,
  0 < wp_mult prm -> 0 <= wp_exp prm ->
  (Z.rem (wp_exp prm) PREC = 0 \/ Z.rem (wp_exp prm) PREC = HALF \/ x3 < TWO) ->
  0 < dd -> fo <> 0 -> fi <> 0 -> to <> 0 -> ti <> 0 ->
  x1 = dmul fi to -> x2 = dquo x1 fo -> x3 = dquo x2 ti -> PREC <= x3 ->
  get_wbf prm fi fo ti to ii io dd = Ok f ->
  Z.min WBF_CAP (wp_mult prm) <= f.
Proof.
  intros prm fi fo ti to ii io dd f x1 x2 x3 Hm He Hc Hdd Hfo Hfi Hto Hti -> -> ->.
  exact (get_wbf_worsening_lower prm fi fo ti to ii io dd f Hm He Hc Hdd Hfo Hfi Hto Hti).
Qed.
Print Assumptions C03_fee_positive_when_worsening.

(* (c) tie with C03_bonus_from_treasury_capped: for a swap whose bonus rate the model computed, what UpdatePoolForSwap sends
   from the rebalance treasury is at most the treasury balance and at most base * 0.99 * portion *)
Theorem C03_bonus_with_fee_capped : forall p assets kin kout a ratio perp fee prm out s oo bonus base treasury b,
  0 <= wp_mult prm -> exp_int_or_half (wp_exp prm) -> 0 <= wp_portion prm -> 0 <= perp <= PREC -> 0 <= base ->
  oracle_swap_out_wf p assets kin kout a ratio perp fee prm = Ok (out, s, oo, bonus) ->
  bonus_paid true base bonus treasury = Ok b ->
  0 <= b /\ (0 < b -> b <= treasury /\ 0 < bonus /\ b * PREC <= base * dmul WBF_CAP (wp_portion prm)).
Proof.
  intros p assets kin kout a ratio perp fee prm out s oo bonus base treasury b Hm He Hpo Hpe Hb H Hbp.
  apply (oracle_swap_out_wf_spec prm Hm (exp_ok_pow_nonneg _ He) Hpo) in H
    as (wbf & _ & _ & _ & _ & _ & _ & _ & _ & (_ & B & _) & _); [|exact Hpe].
  exact (bonus_paid_with_fee_capped _ _ _ _ _ Hb B Hbp).
Qed.
Print Assumptions C03_bonus_with_fee_capped.

(* non-vacuity of the with-fee theorems: a generated case replayed on the real SwapOutAmtGivenIn (worsening swap, fee 1.43 %) *)
Example C03_with_fee_nonvacuous :
  let p := mkPool 7321 880 1 1 0 0 true 7321 880 100000000000000 831857364403457 in
  let prm := mkWP 500000000000000 2500000000000000000 500000000000000000 300000000000000000 in
  exists s oo, oracle_swap_out_wf p (pool_assets p true) 0 1 4880 (100 * PREC) PREC 0 prm = Ok (490, s, oo, -14349589350757062)
    /\ exp_int_or_half (wp_exp prm) /\ 0 <= wp_mult prm /\ 0 <= wp_portion prm.
Proof.
  eexists. eexists. split; [vm_compute; reflexivity|]. split; [exact C03_wbf_default_exponent|].
  split; vm_compute; discriminate.
Qed.

(* non-vacuity: the fixture's pool sizes, a successful swap, hypotheses satisfied, bound tight (out = floor(exact)) *)
Example C03_nonvacuous :
  exists slip, calc_out (cp11 30000000000 10000000000) 1000000 3000000000000000 = Ok (332322, slip) /\
  cp_eq (cp11 30000000000 10000000000) /\
  (10000000000 * (1000000 * (PREC - 3000000000000000))) / (30000000000 * PREC + 1000000 * (PREC - 3000000000000000)) = 332322.
Proof.
  eexists. split; [vm_compute; reflexivity|]. split; [|vm_compute; reflexivity].
  unfold cp_eq, cp11, ebal. simpl. repeat split; lia.
Qed.

(* non-vacuity of the integer-ratio theorems: the fixture's 1:3 pool (uusdc 30e9 weight 1 : uelys 10e9 weight 3), 1e6
   uelys in at 0.3% pays 8971211 = floor(exact); hypotheses of the one-unit corollary hold; the opposite exact-out
   trade (1e6 uelys bought with uusdc) succeeds as well *)
Example C03_integer_ratio_nonvacuous :
  let p := cp13 10000000000 30000000000 3 1 in
  let N := rin p * PREC + 1000000 * (PREC - 3000000000000000) in
  exists slip, calc_out p 1000000 3000000000000000 = Ok (8971211, slip) /\
  (rout p * (N ^ 3 - (rin p * PREC) ^ 3)) / N ^ 3 = 8971211 /\
  rout p * ((2 * 3 - 1) * PREC + 2 * 3) <= 2 * (PREC * PREC) /\
  exists slip2, calc_in (cp13 30000000000 10000000000 1 3) 1000000 3000000000000000 = Ok (9028887, slip2).
Proof.
  cbv zeta. eexists. split; [vm_compute; reflexivity|]. split; [vm_compute; reflexivity|].
  split; [vm_compute; discriminate|]. eexists. vm_compute. reflexivity.
Qed.
