(* C07 - Vault shares are issued and redeemed at the fair rate and lending is capped.
   Statements with their final assembly; the lemmas are in Proofs/StableProofs.v, the model in Models/Stable.v (exact Gallina
   transcription of x/stablestake Bond / Unbond / GetRedemptionRate / Borrow / Repay /
   UpdateInterestStacked over Base/Zdec.v; interest amounts are parameters >= 0).
   Notation: P = PREC = 10^18; r = rate_of tv sup = the code's stored 18-digit redemption rate (raw);
   "one share's worth" = r / P base units. No theorem bounds the size of the vault, of the amounts or
   the length of a history; numeric side conditions are written out where one is needed. *)
From Coq Require Import ZArith List Bool Lia.
From Elys Require Import Base.Res Base.Zdec Models.Stable Proofs.StableProofs Base.ResFacts Base.ListFacts.
Import ListNotations.
Open Scope Z_scope.

(* (1) Deposit a, then at once redeem the shares just minted: for EVERY vault size, supply, amount and
   rate > 0,   payout - a  <=  (r/P)/2 * (1 + 10^-18 + 2*10^-36) + 1/2   (exact form, cleared of fractions). *)
Theorem C07_bond_unbond_le : forall tv sup a, 0 <= tv -> 0 < sup -> 0 < rate_of tv sup -> 0 <= a ->
  let r := rate_of tv sup in
  let sh := bond_shares tv sup a in
  let p := unbond_payout (tv + a) (sup + sh) sh in
  2 * PREC * PREC * PREC * (p - a) <= r * (PREC * PREC + PREC + 2) + PREC * PREC * PREC.
Proof. exact roundtrip_explicit. Qed.
Print Assumptions C07_bond_unbond_le.

(* ... hence never more than one share's worth when the rate is >= 1, at ANY size of the vault and of the deposit *)
Theorem C07_bond_unbond_le_one_share : forall tv sup a, 0 < sup -> sup <= tv -> 0 <= a ->
  let r := rate_of tv sup in
  let sh := bond_shares tv sup a in
  let p := unbond_payout (tv + a) (sup + sh) sh in
  (p - a) * PREC <= r.
Proof. exact roundtrip_one_share. Qed.
Print Assumptions C07_bond_unbond_le_one_share.

(* the same on the state machine (wallets, committed shares, failure points included) *)
Theorem C07_roundtrip_state : forall s u amt s1 s2,
  0 < s_supply s -> s_supply s <= s_tv s ->
  bond u amt s = Ok s1 ->
  unbond u (a_shares (get_acct s1 u) - a_shares (get_acct s u)) s1 = Ok s2 ->
  (a_wallet (get_acct s2 u) - a_wallet (get_acct s u)) * PREC <= rate_of (s_tv s) (s_supply s) /\
  a_shares (get_acct s2 u) = a_shares (get_acct s u).
Proof.
  intros s u amt s1 s2 Hs Ht B U. apply bond_ok in B as ([A _] & L & _ & ->).
  rewrite get_upd in U by exact L. cbn [a_shares] in U. rewrite Z.add_simpl_l in U.
  apply unbond_ok in U as (_ & _ & _ & ->). cbn [s_tv s_supply s_cash s_accts].
  rewrite !get_upd by (rewrite ?length_upd_nth; exact L). cbn [a_wallet a_shares].
  pose proof (roundtrip_one_share (s_tv s) (s_supply s) amt Hs Ht ltac:(lia)) as R. cbv zeta in R.
  split; lia.
Qed.
Print Assumptions C07_roundtrip_state.

(* first deposit into an empty vault: shares = amount, redemption = amount, exactly *)
Theorem C07_first_deposit_exact : forall a, 0 <= a ->
  bond_shares 0 0 a = a /\ unbond_payout (0 + a) (0 + a) a = a.
Proof.
  intros a Ha. split; [apply bond_shares_par; reflexivity|]. cbn [Z.add].
  destruct (Z.eq_dec a 0) as [->|N]; [reflexivity|]. apply unbond_payout_par, rate_of_self. lia.
Qed.
Print Assumptions C07_first_deposit_exact.

(* (2) The lenders that were there before a deposit: their sup shares were worth tv, afterwards
   sup*(tv+a)/(sup+sh) (exact rational); the loss (tv*sh - sup*a)/(sup+sh) is at most
   [sup/(sup+sh)] * bond_slack r sh / (2 P^2) ~ [sup/(sup+sh)] * (rate/2 + sh/(2*10^18)). *)
Theorem C07_others_not_diluted_by_bond : forall tv sup a, 0 <= tv -> 0 < sup -> 0 < rate_of tv sup -> 0 <= a ->
  let r := rate_of tv sup in
  let sh := bond_shares tv sup a in
  0 <= sh /\ 2 * PREC * PREC * (tv * sh - sup * a) <= sup * bond_slack r sh.
Proof. exact bond_others_value. Qed.
Print Assumptions C07_others_not_diluted_by_bond.

(* The lenders that remain after a withdrawal of sh shares lose exactly payout - sh*tv/sup, which is at
   most unbond_slack sh / (2 P) = 1/2 + sh/(2*10^18); and the redeemer is not short-changed by more. *)
Theorem C07_others_not_diluted_by_unbond : forall tv sup sh, 0 <= tv -> 0 < sup -> 0 <= sh ->
  let p := unbond_payout tv sup sh in
  0 <= p /\
  2 * PREC * (p * sup - sh * tv) <= sup * unbond_slack sh /\
  2 * PREC * PREC * (sh * tv - p * sup) <= sup * (PREC * PREC + (PREC + 2) * sh).
Proof. exact unbond_others_value. Qed.
Print Assumptions C07_others_not_diluted_by_unbond.

(* the depositor is credited at the fair rate too (lower bound on the value of the minted shares) *)
Theorem C07_depositor_fair : forall tv sup a, 0 <= tv -> 0 < sup -> 0 < rate_of tv sup -> 0 <= a ->
  let sh := bond_shares tv sup a in
  4 * PREC * PREC * PREC * (a * sup - tv * sh)
    < 2 * sh * PREC * PREC * sup + (2 * tv * PREC + sup) * (PREC * PREC + PREC + 2).
Proof.
  intros tv sup a Ht Hs Hr Ha. cbv zeta. pose proof PREC_pos.
  destruct (rate_bounds tv sup Ht Hs) as (_ & R2 & _). destruct (shares_bounds tv sup a Ha Hr) as (_ & S2 & S3).
  (* (lower share bound) * sup, then the upper rate bound twice: times sh P^2 and times P^2 + P + 2 *)
  pose proof (proj1 (Z.mul_lt_mono_pos_r sup _ _ Hs) S2).
  pose proof (Z.mul_le_mono_nonneg_l _ _ (bond_shares tv sup a * PREC * PREC) ltac:(nia) R2).
  pose proof (Z.mul_le_mono_nonneg_r _ _ (PREC * PREC + PREC + 2) ltac:(nia) R2). lia.
Qed.
Print Assumptions C07_depositor_fair.

(* "the same allowance" (one share's worth) for the others holds whenever the operation moves at most
   5*10^17 shares (deposit) / 10^18 shares (withdrawal), whatever the size of the vault ... *)
Theorem C07_others_one_share_bond : forall tv sup a, 0 < sup -> sup <= tv -> 0 <= a ->
  let r := rate_of tv sup in
  let sh := bond_shares tv sup a in
  2 * sh <= PREC ->
  (tv * sh - sup * a) * PREC <= r * (sup + sh).
Proof.
  intros tv sup a Hs Ht Ha. cbv zeta. intros Hsh. pose proof (rate_ge_one tv sup Hs Ht) as R. pose proof PREC_gt_3.
  destruct (bond_others_value tv sup a ltac:(lia) Hs ltac:(lia) Ha) as [B1 B2]. unfold bond_slack in B2.
  (* the slack is at most 2 P r when 2 sh <= P <= r *)
  assert (SL : (PREC + 1) * rate_of tv sup + (PREC + 2) * bond_shares tv sup a <= 2 * PREC * rate_of tv sup) by nia.
  pose proof (Z.mul_le_mono_nonneg_l _ _ sup ltac:(lia) SL). nia.
Qed.
Print Assumptions C07_others_one_share_bond.

Theorem C07_others_one_share_unbond : forall tv sup sh, 0 < sup -> sup <= tv -> 0 <= sh -> sh <= PREC ->
  let r := rate_of tv sup in
  let p := unbond_payout tv sup sh in
  (p * sup - sh * tv) * PREC <= r * sup.
Proof.
  intros tv sup sh Hs Ht Hsh Hle. cbv zeta. pose proof (rate_ge_one tv sup Hs Ht) as R.
  destruct (unbond_others_value tv sup sh ltac:(lia) Hs Hsh) as (_ & B2 & _). unfold unbond_slack in B2.
  pose proof (Z.mul_le_mono_nonneg_l (sh + PREC) (2 * rate_of tv sup) sup ltac:(lia) ltac:(lia)). lia.
Qed.
Print Assumptions C07_others_one_share_unbond.

(* ... and is REFUTED above them on the faithful model (and on the real code: harness corpus history 2,
   signature C07:others-value-reduced-beyond-one-share:operation-above-5e17-shares): redeeming 10^21 of
   2*10^21 shares costs the remaining lenders > 369 base units, depositing 10^21 costs the previous
   lenders > 129, while a share is worth 1.003. *)
Theorem C07_others_one_share_refuted :
  (0 < refute_sup_u <= refute_tv_u /\ 0 < refute_sh_u <= refute_sup_u /\
   let p := unbond_payout refute_tv_u refute_sup_u refute_sh_u in
   (p * refute_sup_u - refute_sh_u * refute_tv_u) * PREC > 369 * PREC * refute_sup_u /\
   rate_of refute_tv_u refute_sup_u < 2 * PREC) /\
  (0 < refute_sup_b <= refute_tv_b /\
   let sh := bond_shares refute_tv_b refute_sup_b refute_a_b in
   (refute_tv_b * sh - refute_sup_b * refute_a_b) * PREC > 129 * PREC * (refute_sup_b + sh) /\
   rate_of refute_tv_b refute_sup_b < 2 * PREC).
Proof. vm_compute. repeat split; intros; discriminate. Qed.
Print Assumptions C07_others_one_share_refuted.

(* (2') EVERY successful step of ANY account (bond, unbond, borrow, repay, interest accrual, transfers
   elsewhere), in every state with a positive rate: the exact value per share tv/S falls by at most
   step_slack / (2 P^2 S'), where step_slack is 0 for everything but a bond / unbond. *)
Theorem C07_share_value_per_step : forall s o s',
  0 <= s_tv s -> 0 < s_supply s -> 0 < rate_of (s_tv s) (s_supply s) ->
  step s o = Ok s' ->
  2 * PREC * PREC * (s_tv s * s_supply s' - s_tv s' * s_supply s) <= s_supply s * step_slack s o.
Proof.
  intros s o s' Ht Hs Hr H. apply step_book in H. pose proof PREC_pos.
  destruct o; cbn [step_slack]; try (destruct H as [I ->]; apply no_drop; assumption); destruct H as (A & -> & ->).
  - destruct (bond_others_value (s_tv s) (s_supply s) amt Ht Hs Hr ltac:(lia)) as [_ B]. lia.
  - destruct (unbond_others_value (s_tv s) (s_supply s) sh Ht Hs ltac:(lia)) as (_ & B & _).
    pose proof (Z.mul_le_mono_nonneg_l _ _ PREC ltac:(lia) B). lia.
Qed.
Print Assumptions C07_share_value_per_step.

(* the same on the code's own stored rate: r' > r - 1 - 10^-18 - step_slack/(2 P S') raw units ... *)
Theorem C07_rate_monotone_under_others : forall s o s',
  0 <= s_tv s -> 0 < s_supply s -> 0 < rate_of (s_tv s) (s_supply s) ->
  0 <= s_tv s' -> 0 < s_supply s' ->
  step s o = Ok s' ->
  2 * PREC * s_supply s' * (rate_of (s_tv s) (s_supply s) - rate_of (s_tv s') (s_supply s') - 1)
     < step_slack s o + 2 * s_supply s'.
Proof.
  intros s o s' Ht Hs Hr Ht' Hs' H. apply code_rate_drop; try assumption.
  apply C07_share_value_per_step; assumption.
Qed.
Print Assumptions C07_rate_monotone_under_others.

(* ... and borrowing, repaying, accruing interest never lower the stored rate at all *)
Theorem C07_rate_nondecreasing_without_share_op : forall s o s',
  0 <= s_tv s -> 0 < s_supply s -> share_op o = false -> step s o = Ok s' ->
  s_supply s' = s_supply s /\ s_tv s <= s_tv s' /\
  rate_of (s_tv s) (s_supply s) <= rate_of (s_tv s') (s_supply s').
Proof.
  intros s o s' Ht Hs Ho H. apply step_book in H. destruct o; try discriminate Ho; destruct H as [I E].
  all: rewrite E; repeat split; try exact I; apply rate_mono; try lia; nia.
Qed.
Print Assumptions C07_rate_nondecreasing_without_share_op.

(* The hypothesis "rate >= 1" (supply <= TotalValue) of the one-share statements is stable: every deposit keeps
   it at any size (and never mints more shares than base units paid in); every withdrawal of fewer than
   10^18 shares keeps it; interest only raises TotalValue. Above 10^18 shares it can be lost (sharpness). *)
Theorem C07_rate_ge_one_kept_by_bond : forall tv sup a, 0 < sup -> sup <= tv -> 0 <= a ->
  let sh := bond_shares tv sup a in 0 <= sh <= a /\ sup + sh <= tv + a.
Proof.
  intros tv sup a Hs Ht Ha. cbv zeta. destruct (shares_le_amount tv sup a Ha (rate_ge_one tv sup Hs Ht)). lia.
Qed.
Print Assumptions C07_rate_ge_one_kept_by_bond.

Theorem C07_rate_ge_one_kept_by_unbond : forall tv sup sh, 0 < sup -> sup <= tv -> 0 <= sh -> sh <= sup -> sh < PREC ->
  let p := unbond_payout tv sup sh in sup - sh <= tv - p.
Proof.
  intros tv sup sh Hs Ht H0 Hle Hlt. cbv zeta. pose proof PREC_pos.
  destruct (unbond_others_value tv sup sh ltac:(lia) Hs H0) as (_ & B & _). unfold unbond_slack in B.
  set (p := unbond_payout tv sup sh) in *. clearbody p.
  destruct (Z_le_gt_dec (sup - sh) (tv - p)) as [L|G]; [exact L|exfalso].
  (* a payout above sh + (tv - sup) would exceed the pro-rata value by a whole unit per share: sup * 2P > sup * (sh + P) *)
  pose proof (Z.mul_le_mono_nonneg_r (sh + (tv - sup) + 1) p (2 * PREC * sup) ltac:(nia) ltac:(lia)).
  pose proof (Z.mul_le_mono_nonneg_r sh sup (2 * PREC * (tv - sup)) ltac:(nia) Hle).
  pose proof (proj1 (Z.mul_lt_mono_pos_l sup sh PREC Hs) Hlt). lia.
Qed.
Print Assumptions C07_rate_ge_one_kept_by_unbond.

Theorem C07_rate_ge_one_unbond_sharp :
  let tv := 10000000000000000006 in let sup := 10000000000000000000 in let sh := 9000000000000000000 in
  0 < sup <= tv /\ 0 <= sh <= sup /\ tv - unbond_payout tv sup sh < sup - sh.
Proof. vm_compute. repeat split; intros; discriminate. Qed.
Print Assumptions C07_rate_ge_one_unbond_sharp.

(* (3) The cap, exactly as the code decides it (LegacyDec Mul(9).Quo(10) is exact): a Borrow that
   returns Ok had (TV - cash) + amount <= 0.9 TV on the state it read; the post-state satisfies it up
   to a tenth of the interest the call itself stacked. *)
Theorem C07_cap_enforced : forall u amt i s s', borrow u amt i s = Ok s' ->
  0 < amt /\ 0 <= i /\
  10 * (s_tv s - s_cash s + amt) <= 9 * s_tv s /\
  s_tv s' = s_tv s + i /\ s_cash s' = s_cash s - amt /\ s_supply s' = s_supply s /\
  10 * (s_tv s' - s_cash s') <= 9 * s_tv s' + i /\
  a_borrowed (get_acct s' u) - a_borrowed (get_acct s u) = (if (u <? length (s_accts s))%nat then amt else 0).
Proof.
  intros u amt i s s' H. apply borrow_ok in H as ([A D] & I & C & ->). cbn [s_tv s_cash s_supply].
  repeat (split; [lia|]). destruct (Nat.ltb_spec u (length (s_accts s))) as [L|L].
  - rewrite get_upd by exact L. cbn. lia.
  - unfold get_acct. cbn [s_accts]. rewrite upd_nth_oob by exact L. lia.
Qed.
Print Assumptions C07_cap_enforced.

Theorem C07_cap_refuses_above : forall u amt i s, 0 <= amt -> 0 <= i ->
  9 * s_tv s < 10 * (s_tv s - s_cash s + amt) -> borrow u amt i s = Err E_cap.
Proof.
  intros u amt i s A I C. unfold borrow. apply Z.leb_le in A, I. apply Z.ltb_lt in C.
  rewrite A, I, cap_decision, C. reflexivity.
Qed.
Print Assumptions C07_cap_refuses_above.

Theorem C07_cap_grants_within : forall u amt i s, 0 < amt -> 0 <= i -> 0 <= s_tv s ->
  10 * (s_tv s - s_cash s + amt) <= 9 * s_tv s -> exists s', borrow u amt i s = Ok s'.
Proof.
  intros u amt i s A I T C. unfold borrow. rewrite cap_decision.
  rewrite (proj2 (Z.leb_le 0 amt)), (proj2 (Z.leb_le 0 i)), (proj2 (Z.ltb_ge _ _) C), (proj2 (Z.ltb_lt 0 amt) A),
    (proj2 (Z.leb_le amt (s_cash s))) by lia. eexists. reflexivity.
Qed.
Print Assumptions C07_cap_grants_within.

(* sharpness of the "+ i" above: the strict post-state form fails by exactly i/10 *)
Theorem C07_cap_after_own_interest_sharp :
  let s := mkS 1000 1000 200 [mkA 0 0 800 0 0] in
  exists s', borrow 0 100 10 s = Ok s' /\ 10 * (s_tv s' - s_cash s') = 9 * s_tv s' + 10.
Proof. eexists. split; vm_compute; reflexivity. Qed.
Print Assumptions C07_cap_after_own_interest_sharp.

(* (4) non-vacuity: a reachable state at a non-integral rate >= 1 with dust deposits and the cap boundary *)
Example C07_nonvacuous :
  let s0 := mkS 200000000000 200000000000 200000000000
               [mkA 1000000000000 0 0 0 0; mkA 800000000000 200000000000 0 0 0; mkA 1000000000000 0 0 0 0] in
  let s := run s0 [OBorrow 2 100000000000 0; OAccrue 2 1232876712; OBond 0 1; OBond 0 3; OUnbond 0 3; OUnbond 1 2;
                   OBorrow 2 79876712328 0; OBorrow 2 79876712327 0] in
  s_tv s = 201232876711 /\ s_supply s = 199999999999 /\ s_cash s = 20123287672 /\
  rate_of (s_tv s) (s_supply s) = 1006164383560030822 /\
  a_wallet (get_acct s 0) = 999999999999 /\ a_shares (get_acct s 0) = 1 /\
  a_borrowed (get_acct s 2) = 179876712327 /\
  0 < s_supply s <= s_tv s /\
  step s (OBorrow 2 1 0) = Err E_cap.
Proof. vm_compute. repeat split; intros; discriminate. Qed.
