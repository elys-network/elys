(* C20 - Funds escrowed for pending orders are safe and only the owner controls them.
   Model: Models/Shield.v and Models/ShieldPrice.v.
   [step_gen true] / [exec_gen true] model x/tradeshield AS IT IS in /repo since fix 8bfd5d3 (ExecuteOrders runs
   each order attempt on a cache context that is written only on success; the harness compares the real code
   with this one, c20Fixed = true); [step_gen false] is the handler before that fix (the error of an attempt is
   logged and swallowed without a cache context).  The market price and the result + committed transfers of the
   inner amm.SwapByDenom / perpetual.Open call are universally quantified. *)
From Coq Require Import ZArith List Bool Lia.
From Elys Require Import Base.Res Base.Zdec Models.Shield Proofs.ShieldProofs Models.ShieldPrice Proofs.ShieldPriceProofs Base.ResFacts.
Import ListNotations.
Open Scope Z_scope.

(* Only the owner can update or cancel: from any other sender the single cancel, a batch cancel naming
   the order anywhere in its list, and the update are refused (error; the transaction changes nothing).
   Any state, both versions of the handler. *)
Theorem C20_owner_only : forall fixed s sender p id x,
  find_ord p id (ords s) = Some x -> o_owner x <> sender ->
  refused fixed s (if p then OCancelPerp sender id else OCancelSpot sender id) /\
  (forall ids, In id ids -> refused fixed s (if p then OCancelPerps sender ids else OCancelSpots sender ids)) /\
  (forall base quote rate, p = false -> refused fixed s (OUpdateSpot sender id base quote rate)) /\
  (forall trig a b c, p = true -> refused fixed s (OUpdatePerp sender id trig a b c)).
Proof.
  intros fixed s sender p id x F N.
  assert (R : forall o, (exists e, step_gen fixed s o = Err e) -> refused fixed s o).
  { intros o [e E]. exact (refused_of_err _ _ _ e E). }
  assert (U := proj2 (Z.eqb_neq _ _) N).
  split; [|split; [|split]].
  - apply R. rewrite step_cancel. exact (cancel_one_foreign _ _ _ _ x F N).
  - intros ids I. apply R.
    (* a batch cancel past its validation *)
    assert (C : exists e, (if existsb (fun i => i =? 0) ids then Err E_invalid else cancel_list sender p ids s) = Err e).
    { destruct (existsb _ ids); [eauto|]. exact (cancel_list_foreign sender p ids s id x I F N). }
    destruct ids; [destruct I|]. destruct p; exact C.
  - intros base quote rate ->. apply R. cbn. destruct (_ || _); [eauto|]. rewrite F, U. cbn. eauto.
  - intros trig a b c ->. apply R. cbn. destruct (_ || _); [eauto|]. rewrite F, U. cbn. eauto.
Qed.
Print Assumptions C20_owner_only.

(* An execute request from anyone, none of whose listed orders has its trigger condition met at the
   market price the keeper reads (or whose price cannot be read), leaves the whole state - every order,
   every escrow account, every wallet - as it was.  Any state, any inner results, both versions. *)
Theorem C20_untouched_unless_trigger : forall fixed s sender sids pids,
  (forall id r o, In (id, r) sids -> find_ord false id (ords s) = Some o -> untrig o r) ->
  (forall id r o, In (id, r) pids -> find_ord true id (ords s) = Some o -> untrig o r) ->
  exec_gen fixed s (OExecute sender sids pids) = s.
Proof.
  intros fixed s sender sids pids HS HP. apply execute_noop. intros [] id r o I F; left; eauto.
Qed.
Print Assumptions C20_untouched_unless_trigger.

(* Cancelling returns the full escrow: the owner's cancel of a pending order whose escrow account holds
   the escrowed amount succeeds, removes the order, pays the owner exactly that amount, empties the
   escrow account and touches no other account. *)
Theorem C20_cancel_full : forall fixed s p id o,
  find_ord p id (ords s) = Some o -> id <> 0 -> exact_escrow (bk s) o ->
  exists s', step_gen fixed s (if p then OCancelPerp (o_owner o) id else OCancelSpot (o_owner o) id) = Ok s' /\
    ords s' = remove_ord p id (ords s) /\
    (forall d, bk s' (esc o) d = 0) /\
    (forall d, bk s' (AUser (o_owner o)) d = bk s (AUser (o_owner o)) d + (if d =? o_den o then o_amt o else 0)) /\
    (forall a d, a <> esc o -> a <> AUser (o_owner o) -> bk s' a d = bk s a d).
Proof.
  intros fixed s p id o F N EX. rewrite step_cancel. destruct (cancel_bank_some p (bk s) o EX) as [b B].
  eexists. split; [apply cancel_one_ok; exists o, b; repeat split; assumption|].
  split; [reflexivity|]. exact (cancel_bank_paid p (bk s) o b EX B).
Qed.
Print Assumptions C20_cancel_full.

(* Wallet + escrow accounts of the pending orders, of EVERY user and denom, are conserved by every create
   (spot limit orders, perpetual open orders) and every update, successful or rejected, in any well-formed
   state (ids unique and below the counters, accounts of not yet issued ids empty), both versions.
   The full statement is C20_conserved / C20_conserved_history below. *)
Theorem C20_conserved_partial : forall fixed s o, WF s ->
  match o with
  | OCreateSpot _ typ _ _ _ _ _ _ => typ <> 3
  | OCreatePerp _ _ _ _ _ _ _ _ _ | OUpdateSpot _ _ _ _ _ | OUpdatePerp _ _ _ _ _ _ => True
  | _ => False
  end ->
  forall u d, total (exec_gen fixed s o) u d = total s u d.
Proof.
  intros fixed s o W H u d. unfold exec_gen.
  apply (run_tx_rel (fun s s' => total s' u d = total s u d)); [reflexivity|]. intros s' E.
  apply (book_step fixed s o s' W); [|exact E]. destruct o; try contradiction; cbn; auto.
Qed.
Print Assumptions C20_conserved_partial.

(* History level, for the handler as it is since the fix (each order attempt on a cache context).
   [Inv s]: order keys unique and below the counters; the escrow account of EVERY pending order holds exactly
   its escrowed coin and nothing else; every escrow account that belongs to no pending order (cancelled,
   executed, not yet issued) is empty.
   [no_escrow_transfers h]: no plain bank transfer (OSend) of the history goes to an escrow account. That
   is the only excluded input: tokens a third party sends to an escrow account are not the owner's funds;
   a perpetual cancel returns exactly the collateral and leaves them behind, a spot cancel hands them to the
   owner. Everything else is covered: creates incl. market buys with any inner result, updates, single and
   batch cancels from anyone, execute requests from anyone with ANY resolved prices and inner results
   (ok / error / panic, any committed transfers between the owner and outside accounts), transfers between
   users, blocks (wallets rewritten arbitrarily by OEnv), and every rejected or panicking transaction. *)

(* Inv is an invariant: it holds after every such history started in any state satisfying it ... *)
Theorem C20_escrow_invariant : forall h s, Inv s -> no_escrow_transfers h -> Inv (run_gen true s h).
Proof. exact inv_run. Qed.
Print Assumptions C20_escrow_invariant.

(* ... in particular from the empty order book with arbitrary user wallets (the state the harness starts from) *)
Theorem C20_escrow_invariant_from_empty : forall l h, no_escrow_transfers h ->
  Inv (run_gen true (init_state (set_wallets (fun _ _ => 0) l)) h).
Proof. intros l h NE. apply inv_run; [apply inv_init_wallets|exact NE]. Qed.
Print Assumptions C20_escrow_invariant_from_empty.

(* hence in every reachable state the owner's cancel of any pending order succeeds, pays the owner exactly
   the escrowed coin, empties the escrow account and touches no other account (C20_cancel_full without its
   hypothesis) *)
Theorem C20_cancel_full_history : forall h s, Inv s -> no_escrow_transfers h ->
  let t := run_gen true s h in
  forall p id o, find_ord p id (ords t) = Some o -> id <> 0 ->
  exists t', step_gen true t (if p then OCancelPerp (o_owner o) id else OCancelSpot (o_owner o) id) = Ok t' /\
    ords t' = remove_ord p id (ords t) /\
    (forall d, bk t' (esc o) d = 0) /\
    (forall d, bk t' (AUser (o_owner o)) d = bk t (AUser (o_owner o)) d + (if d =? o_den o then o_amt o else 0)) /\
    (forall a d, a <> esc o -> a <> AUser (o_owner o) -> bk t' a d = bk t a d).
Proof.
  intros h s I NE t p id o F N. apply C20_cancel_full; [exact F|exact N|].
  apply (escrow_exact_history h s I NE). exact (proj1 (find_ord_some _ _ _ _ F)).
Qed.
Print Assumptions C20_cancel_full_history.

(* Conservation, per step, for EVERY kind of step: wallet + escrow accounts of the pending orders of user u
   are unchanged by step o from any sender unless [quiet s o u] fails, i.e. unless o is
     - an execute request listing an order of u whose attempt can succeed (trigger met AND inner call ok)
       (orders of OTHER owners may execute in the same request),
     - a market-buy create of u (filled at once: the inner swap's transfers are u's own trade),
     - a plain transfer from u or to u's wallet, or a block that settles u's queued swaps (OEnv naming u).
   Creates, updates, the owner's single and batch cancels (the escrow moves to the wallet), non-owner /
   rejected / panicking transactions and execute requests for other owners all conserve it. *)
Theorem C20_conserved : forall s o u, Inv s -> op_ok o = true -> quiet s o u ->
  forall d, total (exec_gen true s o) u d = total s u d.
Proof. exact conserved. Qed.
Print Assumptions C20_conserved.

(* ... and over every history all of whose steps are quiet for u (quiet is evaluated in the state each step
   starts from) *)
Theorem C20_conserved_history : forall h s u, Inv s -> no_escrow_transfers h -> quiet_run s h u ->
  forall d, total (run_gen true s h) u d = total s u d.
Proof.
  induction h as [|o t IH]; intros s u I NE Q d; [reflexivity|]. destruct Q as [Q1 Q2]. inversion NE; subst. simpl.
  rewrite IH; auto using inv_exec. apply conserved; auto.
Qed.
Print Assumptions C20_conserved_history.

(* non-vacuity of the two history theorems: user 0 creates a limit sell, user 1 a perpetual order, user 0
   updates and creates a second order, a third party executes user 1's order (successfully), user 0 batch
   cancels: the hypotheses hold for u = 0, user 0's funds are conserved, user 1's are not (its order executed) *)
Theorem C20_conserved_nonvacuous :
  Inv ex_s0 /\ no_escrow_transfers ex_h /\ quiet_run ex_s0 ex_h 0 /\
  length (ords (run_gen true ex_s0 (firstn 4 ex_h))) = 3%nat /\
  length (ords (run_gen true ex_s0 (firstn 5 ex_h))) = 2%nat /\
  bk (run_gen true ex_s0 (firstn 5 ex_h)) (AUser 0) 1 = 1000000000000 - 3000000 /\
  total (run_gen true ex_s0 (firstn 5 ex_h)) 0 1 = 1000000000000 /\
  ords (run_gen true ex_s0 ex_h) = [] /\
  total (run_gen true ex_s0 ex_h) 0 1 = total ex_s0 0 1 /\
  total (run_gen true ex_s0 ex_h) 1 0 = total ex_s0 1 0 - 10000000.
Proof.
  split; [apply inv_init_wallets|]. split; [repeat constructor|]. split.
  - simpl. repeat split; try (intro H; discriminate).
    + intros id r o [].
    + intros id r o [H|[]] F OW. inversion H; subst. vm_compute in F. inversion F; subst. vm_compute in OW. discriminate.
  - vm_compute. repeat split.
Qed.
Print Assumptions C20_conserved_nonvacuous.

(* The handler as it is: an execute request in which no attempt succeeds (trigger not met, no price, or the
   inner swap / perpetual open fails or leaves partial writes) changes nothing: order, escrow and owner
   funds as before. *)
Theorem C20_failed_execute_unchanged_fixed : forall s sender sids pids,
  (forall id r o, In (id, r) sids -> find_ord false id (ords s) = Some o -> untrig o r \/ inner_fails r) ->
  (forall id r o, In (id, r) pids -> find_ord true id (ords s) = Some o -> untrig o r \/ inner_fails r) ->
  exec_gen true s (OExecute sender sids pids) = s.
Proof.
  intros s sender sids pids HS HP. apply execute_noop.
  intros [] id r o I F; [destruct (HP id r o I F)|destruct (HS id r o I F)]; auto.
Qed.
Print Assumptions C20_failed_execute_unchanged_fixed.

(* The code BEFORE fix: 8bfd5d3 (fixed = false): a third party's execute request whose perpetual.Open fails
   AFTER the collateral reached the pool leaves the order pending, the escrow empty and the owner 14000000000
   uusdc short (wallet + escrow not conserved); the handler as it is leaves the state untouched. *)
Theorem C20_failed_execute_refuted :
  let s' := exec_gen false w_s1 w_dirty in
  find_ord true 1 (ords w_s1) <> None /\ ords s' = ords w_s1 /\
  total w_s1 0 0 = 1000000000000 /\ total s' 0 0 = 1000000000000 - 14000000000 /\
  bk s' (APerp 1) 0 = 0 /\
  exec_gen true w_s1 w_dirty = w_s1.
Proof. vm_compute. repeat split; discriminate. Qed.
Print Assumptions C20_failed_execute_refuted.

(* The code BEFORE fix: 8bfd5d3 (fixed = false): even an attempt that fails before moving anything has
   already returned the escrow to the owner: the order stays pending with an empty escrow account and the
   owner's own cancel is refused (the handler as it is keeps the escrow, and the cancel returns it in full). *)
Theorem C20_failed_execute_strands_order_refuted :
  let s' := exec_gen false w_s1 w_clean in
  ords s' = ords w_s1 /\ total s' 0 0 = total w_s1 0 0 /\
  bk w_s1 (APerp 1) 0 = 14000000000 /\ bk s' (APerp 1) 0 = 0 /\
  step s' (OCancelPerp 0 1) = Err E_funds /\
  (exists s2, step_fixed (exec_gen true w_s1 w_clean) (OCancelPerp 0 1) = Ok s2 /\ ords s2 = [] /\ bk s2 (AUser 0) 0 = 1000000000000).
Proof. vm_compute. repeat split. eexists; repeat split. Qed.
Print Assumptions C20_failed_execute_strands_order_refuted.

(* The market price a spot order's trigger is compared with (Models/ShieldPrice.v: Keeper.GetAssetPriceFromDenomInToDenomOut).
   [market_price] is the code BEFORE fix: 12bba76 (still the fallback when an oracle record is missing): USD value of ONE
   base unit of each denom = oracle price / 10^decimals in an 18-digit LegacyDec, then their quotient; the code as it is,
   [market_price_fixed], follows further down.  In the theorems above the market price is universally quantified; here it
   is a function of the two oracle price records (raw LegacyDec, per whole token) and the decimals of the two denoms. *)

(* the stated rounding: each of the three LegacyDec quotients is within (1/2 + 10^-18) units of its 18th digit of the exact
   quotient of its operands: a ~ pin / 10^din, b ~ pout / 10^dout, mp ~ a / b.  (The error of a and b RELATIVE to their size
   is what matters for mp: a has only 18 - din + log10(pin) significant digits.) *)
Theorem C20_market_price_rounding : forall pin din pout dout mp,
  0 <= pin -> 0 <= pout -> 0 <= din -> 0 <= dout ->
  market_price pin din pout dout = Some mp ->
  let a := usd_value_of_one pin din in
  let b := usd_value_of_one pout dout in
  0 < a /\ 0 < b /\ 0 <= mp /\
  Z.abs (a * pow10 din - pin) * PREC <= pow10 din * (HALF + 1) /\
  Z.abs (b * pow10 dout - pout) * PREC <= pow10 dout * (HALF + 1) /\
  Z.abs (mp * b - a * PREC) * PREC <= b * (HALF + 1).
Proof.
  intros pin din pout dout mp Pi Po _ _ H. cbv zeta.
  destruct (market_price_ok _ _ _ _ _ H) as (Di & Do & A & B & ->).
  destruct (usd_value_bound pin din Pi Di) as [A0 UA]. destruct (usd_value_bound pout dout Po Do) as [B0 UB].
  destruct (dquo_bound (usd_value_of_one pin din) (usd_value_of_one pout dout)) as [M Q]; [lia..|].
  repeat split; (assumption || lia).
Qed.
Print Assumptions C20_market_price_rounding.

(* no loss in the first stage for a price with at most 18 - decimals digits after the point *)
Theorem C20_market_price_unit_value_exact_on_grid : forall p dec, 0 <= p -> 0 <= dec -> Z.rem p (pow10 dec) = 0 ->
  usd_value_of_one p dec * pow10 dec = p.
Proof.
  intros p dec _ D R. pose proof (Z.quot_rem' p (pow10 dec)) as E. rewrite R, Z.add_0_r, Z.mul_comm in E.
  rewrite E at 1. rewrite usd_value_exact by exact D. symmetry. exact E.
Qed.
Print Assumptions C20_market_price_unit_value_exact_on_grid.

(* the market price never falls when the base asset's oracle price rises or the quote asset's falls (it may become
   unavailable only because the quote's per-unit value rounds to zero) *)
Theorem C20_market_price_monotone : forall pin pin' din pout pout' dout m,
  0 <= pin <= pin' -> 0 <= pout' <= pout -> 0 <= din -> 0 <= dout ->
  market_price pin din pout dout = Some m ->
  market_price pin' din pout' dout = None \/
  exists m', market_price pin' din pout' dout = Some m' /\ m <= m'.
Proof. intros pin pin' din pout pout' dout m Pi Po _ _. exact (market_price_monotone pin pin' din pout pout' dout m Pi Po). Qed.
Print Assumptions C20_market_price_monotone.

(* the trigger decision of ExecuteOrders is monotone in the market price: once met, the trigger of a LIMITSELL / perpetual
   SHORT stays met at every higher price, that of a STOPLOSS / LIMITBUY / perpetual LONG at every lower price ... *)
Theorem C20_trigger_monotone : forall o mp mp', triggered o mp = true ->
  (rising o = true -> mp <= mp' -> triggered o mp' = true) /\
  (falling o = true -> mp' <= mp -> triggered o mp' = true).
Proof. exact trigger_monotone. Qed.
Print Assumptions C20_trigger_monotone.

(* ... hence in the oracle price: a limit sell that is executable at base price pin is executable at every higher one *)
Theorem C20_trigger_monotone_in_oracle_price : forall o pin pin' din pout dout m,
  o_perp o = false -> o_type o = 1 ->
  0 <= pin <= pin' -> 0 <= pout -> 0 <= din -> 0 <= dout ->
  market_price pin din pout dout = Some m -> triggered o m = true ->
  exists m', market_price pin' din pout dout = Some m' /\ triggered o m' = true.
Proof.
  intros o pin pin' din pout dout m NP TY Pi Po _ _. apply trigger_monotone_base; [|exact Pi|exact Po].
  unfold rising. rewrite NP, TY. reflexivity.
Qed.
Print Assumptions C20_trigger_monotone_in_oracle_price.

(* BEFORE fix: 12bba76 the code did NOT decide the trigger as the exact market price (pin / 10^din) / (pout / 10^dout) does:
   aweth (18 decimals) at 2000.6 USD is valued 2001e-18 USD per base unit; a LIMITSELL aweth -> uusdc at 2000.8 USD per WETH
   (rate 2.0008e-9) is executed by anybody's MsgExecuteOrders while the market is at 2000.6 (exact price 2.0006e-9 < rate).
   With 6 decimals the loss sits at the 13th digit: uatom at 5.0000000000004, STOPLOSS at 5.0000000000002 executed. *)
Theorem C20_trigger_by_exact_price_refuted :
  market_price w_weth 18 w_usdc 6 = Some 2001000000 /\
  triggered w_sell 2001000000 = true /\
  exact_triggered (o_type w_sell) w_weth 18 w_usdc 6 (o_rate w_sell) = false /\
  market_price w_atom 6 w_usdc 6 = Some 5000000000000000000 /\
  triggered w_stop 5000000000000000000 = true /\
  exact_triggered (o_type w_stop) w_atom 6 w_usdc 6 (o_rate w_stop) = false.
Proof. repeat apply conj; vm_compute; reflexivity. Qed.
Print Assumptions C20_trigger_by_exact_price_refuted.

(* The code as it is since fix: 12bba76 (Models/ShieldPrice.v market_price_fixed; the harness checks on every spot-order
   attempt that the keeper returned exactly this value of the records it read from x/oracle): one division of
   the whole-token prices; its result is within (1/2 + 10^-18) units of its 18th digit of the exact market price, and it
   refuses the two orders above. *)
Theorem C20_market_price_fixed_rounding : forall pin din pout dout mp,
  0 <= din -> 0 <= dout -> market_price_fixed pin din pout dout = Some mp ->
  0 <= mp /\
  (din <= dout -> Z.abs (mp * pout - pin * pow10 (dout - din) * PREC) * PREC <= pout * (HALF + 1)) /\
  (dout < din -> Z.abs (mp * (pout * pow10 (din - dout)) - pin * PREC) * PREC <= pout * pow10 (din - dout) * (HALF + 1)).
Proof.
  intros pin din pout dout mp _ _ H. destruct (market_price_fixed_ok _ _ _ _ _ H) as (Pi & Po & ->).
  destruct (Z.leb_spec din dout) as [L|L].
  - pose proof (pow10_pos (dout - din) ltac:(lia)).
    destruct (dquo_bound (pin * pow10 (dout - din)) pout) as [A B]; [nia|lia|]. repeat split; [exact A|intros _; exact B|lia].
  - pose proof (pow10_pos (din - dout) ltac:(lia)).
    destruct (dquo_bound pin (pout * pow10 (din - dout))) as [A B]; [lia|nia|]. repeat split; [exact A|lia|intros _; exact B].
Qed.
Print Assumptions C20_market_price_fixed_rounding.

Theorem C20_market_price_fixed_witnesses :
  market_price_fixed w_weth 18 w_usdc 6 = Some 2000600000 /\
  triggered w_sell 2000600000 = false /\
  market_price_fixed w_atom 6 w_usdc 6 = Some w_atom /\
  triggered w_stop w_atom = false.
Proof. repeat apply conj; vm_compute; reflexivity. Qed.
Print Assumptions C20_market_price_fixed_witnesses.

(* non-vacuity: a concrete state the harness really builds (corpus 0 after the create) *)
Example C20_nonvacuous :
  (exists o, find_ord true 1 (ords w_s1) = Some o /\ exact_escrow (bk w_s1) o /\ o_owner o = 0) /\
  NoDup (map okey (ords w_s1)) /\ total w_s1 0 0 = 1000000000000 /\ bk w_s1 (AUser 0) 0 = 1000000000000 - 14000000000.
Proof.
  split; [|split; [|split; reflexivity]].
  - eexists; split; [vm_compute; reflexivity|]. split; [|reflexivity].
    split; [vm_compute; discriminate|]. split; [reflexivity|].
    intro d. vm_compute. destruct d; reflexivity.
  - vm_compute. constructor; [intros []|constructor].
Qed.
