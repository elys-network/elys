(* C11 - Accounted pool balance = pool holdings + perpetual liabilities - custody. *)
From Coq Require Import ZArith List Bool Lia.
From Elys Require Import Base.Res Models.AccPool Proofs.AccPoolProofs Proofs.AccPoolExact Base.ResFacts.
Import ListNotations.
Open Scope Z_scope.

(* For EVERY history of code paths that follow the hook discipline (amm-only changes fire the amm hook
   with the updated pool; every change of perpetual totals fires a perpetual hook with freshly read
   pools), whatever the new reserve / liabilities / custody values are: accounted total = reserve +
   liabilities - custody and non-amm part = liabilities - custody. *)
Theorem C11_accounted : forall h s, AInv s -> disciplined_run s h -> AInv (accrun s h).
Proof.
  induction h as [|o r IH]; intros s HI D; cbn in *; [exact HI|]. destruct D as [D1 D2].
  apply IH; [apply accstep_inv; assumption|exact D2].
Qed.
Print Assumptions C11_accounted.

(* the step the correspondence check uses (hook chosen as the fixed code chooses it) keeps the invariant
   for every sequence of observed source-record values *)
Theorem C11_fixed_discipline_sound : forall l s, AInv s ->
  AInv (fold_left (fun s '(R', L', C') => fixed_step s R' L' C') l s).
Proof.
  intros l s. apply (fold_inv AInv (fun _ => True)); [|apply Forall_forall; auto].
  intros s1 [[R' L'] C'] _. apply fixed_step_inv.
Qed.
Print Assumptions C11_fixed_discipline_sound.

(* The discipline is NECESSARY as well as sufficient. From a consistent accounted pool, a code path leaves it consistent IF
   AND ONLY IF: it fires a perpetual hook with freshly read pools; or it fires the amm hook and liabilities - custody did
   not move; or it passes a stale amm pool and the reserve did not move; or it fires no hook and neither the reserve nor
   liabilities - custody moved. Every one-sided update (a source record moved without the matching hook, a hook fed a
   value read before the transfer) breaks the equation - for all values. *)
Theorem C11_consistent_iff_discipline : forall s o, AInv s -> (AInv (accstep s o) <-> needed s o).
Proof. exact accstep_inv_iff. Qed.
Print Assumptions C11_consistent_iff_discipline.

(* ... over whole histories: consistent after every step iff every step met the condition. *)
Theorem C11_history_consistent_iff : forall h s, AInv s -> (inv_along s h <-> needed_run s h).
Proof.
  induction h as [|o r IH]; intros s HI; cbn; [tauto|].
  pose proof (accstep_inv_iff s o HI) as E. split.
  - intros [H1 H2]. split; [apply E; exact H1|]. apply (IH _ H1). exact H2.
  - intros [H1 H2]. assert (H1' : AInv (accstep s o)) by (apply E; exact H1). split; [exact H1'|]. apply (IH _ H1'). exact H2.
Qed.
Print Assumptions C11_history_consistent_iff.

(* the discipline of C11_accounted implies the necessary condition (it is the special case in which the code changes
   nothing it does not report) *)
Theorem C11_disciplined_is_needed : forall s o, disciplined s o -> needed s o.
Proof. exact disciplined_needed. Qed.
Print Assumptions C11_disciplined_is_needed.

(* A fresh accounted pool (created with the amm pool, no perpetual totals yet) is consistent: the histories of
   C11_accounted start from a state that exists. *)
Theorem C11_fresh_pool_consistent : forall R, AInv (mkAcc R 0 0 R 0).
Proof. intros R. unfold AInv; cbn. lia. Qed.
Print Assumptions C11_fresh_pool_consistent.

(* What the two hooks write, exactly, and what they must not touch (the three source records). *)
Theorem C11_perp_hook_exact : forall s Ra La Ca,
  a_T (perp_hook s Ra La Ca) = Ra + La - Ca /\ a_N (perp_hook s Ra La Ca) = La - Ca /\
  a_R (perp_hook s Ra La Ca) = a_R s /\ a_L (perp_hook s Ra La Ca) = a_L s /\ a_C (perp_hook s Ra La Ca) = a_C s.
Proof. intros s Ra La Ca. cbn. repeat split; lia. Qed.
Print Assumptions C11_perp_hook_exact.

Theorem C11_amm_hook_exact : forall s Ra,
  a_T (amm_hook s Ra) = Ra + a_N s /\ a_N (amm_hook s Ra) = a_N s /\
  a_R (amm_hook s Ra) = a_R s /\ a_L (amm_hook s Ra) = a_L s /\ a_C (amm_hook s Ra) = a_C s.
Proof. intros s Ra. cbn. repeat split. Qed.
Print Assumptions C11_amm_hook_exact.

(* The pinned commit violated the discipline at two sites (both repaired by fix: commits). *)
Theorem C11_prefix_stale_open_refuted :
  let s := mkAcc 5000000 0 0 5000000 0 in
  AInv s /\ ~ AInv (accstep s (AChange 5001000 2000 0 HPerpStaleAmm)) /\
  a_N (accstep s (AChange 5001000 2000 0 HPerpStaleAmm)) = 2000.
Proof. cbn. unfold AInv; cbn. split; [lia|]. split; [|reflexivity]. intros [H _]. lia. Qed.
Print Assumptions C11_prefix_stale_open_refuted.

Theorem C11_prefix_settle_without_hook_refuted :
  let s := mkAcc 5001000 2000 900 5002100 1100 in
  AInv s /\ ~ AInv (accstep s (AChange 5000990 2000 890 HNone)).
Proof. cbn. unfold AInv; cbn. split; [lia|]. intros [_ H]. lia. Qed.
Print Assumptions C11_prefix_settle_without_hook_refuted.

Example C11_nonvacuous :
  let s := accrun (mkAcc 100 0 0 100 0) [AChange 150 0 0 HAmmFresh; AChange 160 30 12 HPerpFresh; AChange 140 30 12 HAmmFresh; AChange 139 30 11 HPerpFresh] in
  a_T s = 158 /\ a_N s = 19.
Proof. vm_compute. split; reflexivity. Qed.
