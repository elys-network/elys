(* C09 - Perpetual pool aggregates equal the sum of positions; custody is always backed. *)
From Coq Require Import ZArith List Bool Arith Lia.
From Elys Require Import Base.Res Base.Fn Models.SumLedger Models.PerpLedger Proofs.PerpLedgerProofs Proofs.PerpLedgerFrame
  Models.PerpBacking Proofs.PerpBackingProofs Models.PerpBackingMulti Proofs.PerpBackingMultiProofs Base.ResFacts.
Import ListNotations.
Open Scope Z_scope.

(* For every set of fields (side x asset x {liabilities, custody, collateral}) and EVERY history of
   transactions built from "store a new MTP", "an MTP field and the pool aggregate move together" (opens,
   consolidation merges, collateral top-ups, partial closes, interest and funding settlement, with any
   signed amounts that keep the MTP field non-negative) and "destroy an MTP whose fields are all zero",
   failing transactions rolled back: every aggregate = sum over the stored MTPs, the open counter = the
   number of stored MTPs, and a destroyed MTP contributes nothing. *)
Theorem C09_aggregates : forall fields h,
  let s := prun fields perp_empty h in
  (forall f, agg s f = sumf (pp s f) (live s)) /\ cnt s = Z.of_nat (length (live s)) /\
  (forall f k, ~ In k (live s) -> pp s f k = 0).
Proof.
  intros fields h s. destruct (prun_inv fields h perp_empty (perp_empty_inv fields)) as (_ & HC & HA & HZ & _). auto.
Qed.
Print Assumptions C09_aggregates.

Theorem C09_invariant : forall fields h s, PInv fields s -> PInv fields (prun fields s h).
Proof. exact prun_inv. Qed.
Print Assumptions C09_invariant.

(* EXACTLY what one primitive changes, and what it must not: a delta moves the acting MTP's field and the pool's aggregate
   of THAT field by the same amount (the MTP field stays non-negative), no other aggregate, no other MTP, no other field of
   the MTP, not the counter; storing / destroying an MTP moves only the counter (by one) and a destroyed MTP held nothing. *)
Theorem C09_step_exact_and_frame : forall fields s o s', pstep fields s o = Ok s' ->
  match o with
  | PDelta k f d =>
      pp s' f k = pp s f k + d /\ agg s' f = agg s f + d /\ 0 <= pp s' f k /\
      (forall f', f' <> f -> agg s' f' = agg s f') /\
      (forall f' k', (f' <> f \/ k' <> k) -> pp s' f' k' = pp s f' k') /\ cnt s' = cnt s /\ live s' = live s
  | PNew k => (forall f, agg s' f = agg s f) /\ (forall f k', pp s' f k' = pp s f k') /\ cnt s' = cnt s + 1
  | PDel k => (forall f, agg s' f = agg s f) /\ (forall f k', pp s' f k' = pp s f k') /\ cnt s' = cnt s - 1 /\
              (forall f, In f fields -> pp s f k = 0)
  end.
Proof. exact pstep_exact. Qed.
Print Assumptions C09_step_exact_and_frame.

(* Over EVERY history of transactions (failing ones rolled back): an MTP no step names keeps every one of its amounts
   (nobody's close, liquidation or settlement changes another position's liabilities, custody or collateral). *)
Theorem C09_other_positions_untouched : forall fields h s k', (forall l o, In l h -> In o l -> mtp_of o <> k') ->
  forall f, pp (prun fields s h) f k' = pp s f k'.
Proof. exact prun_other_mtps. Qed.
Print Assumptions C09_other_positions_untouched.

(* All or nothing, and no negative position amount: a failing transaction changes nothing; a delta that would take an
   MTP's field below zero is refused. *)
Theorem C09_failed_tx_changes_nothing : forall fields s l, (forall s', psteps fields s l <> Ok s') -> ptx fields s l = s.
Proof. intros fields s l. exact (run_tx_failed (fun s => psteps fields s l) s). Qed.
Print Assumptions C09_failed_tx_changes_nothing.

Theorem C09_negative_amount_refused : forall fields s k f d, pp s f k + d < 0 -> pstep fields s (PDelta k f d) = Err E_p.
Proof.
  intros fields s k f d H. cbn [pstep]. destruct (negb (mem_key k (live s)) || negb (mem_key f fields)); [reflexivity|].
  apply Z.ltb_lt in H. rewrite H. reflexivity.
Qed.
Print Assumptions C09_negative_amount_refused.

(* CUSTODY BACKING.  Model: Models/PerpBacking.v (per asset: amm reserve, long/short custody, long collateral, short
   liabilities; the primitive moves with CheckMinimumCustodyAmt placed exactly where the code runs it).
   FULL STATEMENT: in every reachable state, for every asset, amm reserve >= total custody.
   - On the code BEFORE fix: 85af696 the statement was FALSE (C09_custody_backed_refuted; reproduced on the real application,
     signature C09:custody-not-backed:close-positions-item-aborts-after-interest-transfer): perpetual MsgClosePositions ran its
     items without a cache context, and a liquidation item that failed in FundingFeeDistribution (open interest of the side = 0)
     had already transferred the borrow interest out of the pool while the custody reduction was dropped.
   - For that code it was TRUE for every history in which no item does that (C09_custody_backed_asis).
   - THE CODE AS IT IS (since 85af696 every item runs on a cache context written only on success: items are all-or-nothing,
     everything else as coded): TRUE for ALL histories (C09_custody_backed, C09_custody_backed_from_genesis).
   C09_custody_backed_partial is the weaker statement about the check alone: custody that does not grow stays below a
   reserve that does not shrink. *)

(* the guard that keeps funding distribution from raising custody: the caller passes the current height as start block *)
Theorem C09_funding_distribution_is_zero : forall sd fs cur share price, fund_dist sd fs cur share price = 0.
Proof. exact fund_dist_zero. Qed.
Print Assumptions C09_funding_distribution_is_zero.

(* every transaction (any list of amm operations with their hook checks, opens, consolidations, user closes, with arbitrary
   amounts, all or nothing) and every MsgClosePositions with all-or-nothing items keeps reserve >= custody for every asset,
   over every history and at every boundary of it *)
Theorem C09_custody_backed : forall assets h s, Inv assets s -> Inv assets (brun item_atomic assets s h).
Proof. intros assets h. exact (brun_atomic_inv assets h). Qed.
Print Assumptions C09_custody_backed.

Theorem C09_custody_backed_from_genesis : forall assets h1 h2,
  Inv assets (brun item_atomic assets b_empty h1) /\ Inv assets (brun item_atomic assets b_empty (h1 ++ h2)).
Proof. intros assets h1 h2. split; apply brun_atomic_inv; apply b_empty_inv. Qed.
Print Assumptions C09_custody_backed_from_genesis.

(* SEVERAL perpetual pools (Models/PerpBackingMulti.v): every pool has its own books and asset list, a transaction may touch
   any of them (routes crossing pools, an open on one pool after a swap on another) and is written for all pools or for none, a
   MsgClosePositions may list positions of several pools (each item all-or-nothing on its own pool).  Over EVERY such history
   every pool stays backed in every asset. *)
Theorem C09_custody_backed_all_pools : forall assets h f,
  (forall p, Inv (assets p) (f p)) -> forall p, Inv (assets p) (mbrun assets f h p).
Proof. intros assets h f HI. exact (mbrun_inv assets h f HI). Qed.
Print Assumptions C09_custody_backed_all_pools.

(* ... and the family projects onto the one-pool machine the harness replays per pool: an accepted cross-pool transaction is,
   seen from pool p, the accepted one-pool transaction of its operations on p; a mixed MsgClosePositions is, seen from pool p,
   the message of its items on p *)
Theorem C09_cross_pool_tx_projects : forall assets p l f f',
  mhrun assets f l = Ok f' -> hrun (assets p) (f p) (hops_of p l) = Ok (f' p).
Proof. intros assets p l. exact (mhrun_proj assets p l). Qed.
Print Assumptions C09_cross_pool_tx_projects.

Theorem C09_mixed_close_positions_projects : forall assets p l f,
  fold_left (mitem assets) l f p = fold_left (item_atomic (assets p)) (items_of p l) (f p).
Proof. intros assets p l. exact (mitems_proj assets p l). Qed.
Print Assumptions C09_mixed_close_positions_projects.

(* the code before fix: 85af696 (items not atomic): true for every history in which no item leaves a transfer behind *)
Theorem C09_custody_backed_asis : forall assets h s,
  Inv assets s -> abort_free assets s h = true -> Inv assets (brun item_asis assets s h).
Proof. intros assets h. exact (brun_asis_inv assets h). Qed.
Print Assumptions C09_custody_backed_asis.

(* ... and the transfer that can be left behind is the whole interest payment only: in a backed state the second of the two
   interest transfers cannot fail after the first *)
Theorem C09_second_interest_transfer_cannot_fail : forall assets s it s1,
  Inv assets s -> In (si_d it) assets -> 0 <= scu s (si_d it) -> 0 <= lcu s (si_d it) ->
  si_take it + si_rev it <= cu s (si_side it) (si_d it) -> 0 <= si_rev it ->
  mstep assets s (MOut (si_d it) (si_take it)) = Ok s1 ->
  exists s2, mstep assets s1 (MOut (si_d it) (si_rev it)) = Ok s2.
Proof.
  intros assets s it s1 HI Hd Hs Hl Hp Hr H. apply mout_ok in H as (A & ->). eexists. apply mout_ok. split; [|reflexivity].
  cbn [rsv]. rewrite upd_same. specialize (HI _ Hd). unfold tcu, cu in *. destruct (si_side it); lia.
Qed.
Print Assumptions C09_second_interest_transfer_cannot_fail.

(* the code before fix: 85af696 refutes the full statement: a history of a join, an open, an exit (all accepted by the hook check) and
   one MsgClosePositions ends with custody 6000 > reserve 5959 of asset 1; the state before the last message is backed *)
Theorem C09_custody_backed_refuted : exists h,
  backed_b [0%nat; 1%nat] (brun item_asis [0%nat; 1%nat] b_empty (firstn 3 h)) = true /\
  let s := brun item_asis [0%nat; 1%nat] b_empty h in rsv s 1%nat < tcu s 1%nat.
Proof.
  exists refute_history. split; vm_compute; reflexivity.
Qed.
Print Assumptions C09_custody_backed_refuted.

Theorem C09_custody_backed_partial : forall s cf reserve reserve' s',
  check_min_custody s cf reserve = true ->
  reserve <= reserve' -> total_custody s' cf <= total_custody s cf ->
  total_custody s' cf <= reserve'.
Proof. unfold check_min_custody. intros s cf reserve reserve' s' H. apply Z.leb_le in H. lia. Qed.
Print Assumptions C09_custody_backed_partial.

Example C09_nonvacuous :
  let s := prun (seq 0 12) perp_empty
    [[PNew 0; PDelta 0 0 2000; PDelta 0 4 390; PDelta 0 2 1000]; [PNew 1; PDelta 1 9 500; PDelta 1 7 1400; PDelta 1 8 1000];
     [PDelta 0 4 (-3)]; [PDelta 0 0 (-2000); PDelta 0 4 (-387); PDelta 0 2 (-1000); PDel 0]; [PDel 1]] in
  agg s 4%nat = 0 /\ agg s 7%nat = 1400 /\ cnt s = 1 /\ live s = [1%nat].
Proof. vm_compute. repeat split. Qed.
