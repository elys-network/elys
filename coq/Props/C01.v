(* C01 - AMM pool reserves always equal the tokens the pool really holds; DenomLiquidity = sum of reserves. *)
From Coq Require Import ZArith List Bool Arith Lia.
From Elys Require Import Base.Res Base.Fn Models.AmmLedger Proofs.AmmLedgerProofs Proofs.AmmLedgerFrame Base.ResFacts.
Import ListNotations.
Open Scope Z_scope.

(* Level A. For every set of pools, every initial state satisfying the invariant (pool creation
   establishes it: reserves = deposited coins), and EVERY history of transactions - each an arbitrary
   list of paired transfers+book updates (swap legs, fee skims, joins, exits, perpetual
   SendTo/FromAmmPool, reward conversions) and third-party donations with arbitrary amounts, failing
   transactions rolled back - bank balance = reserve + donations (donations >= 0) for every pool and
   denom, and the liquidity record of every denom = sum of the reserves over all pools. *)
Theorem C01_reserves_match_bank : forall (ps : list nat), NoDup ps ->
  forall h s, Inv ps s -> Forall (Forall (fun o => In (pool_of o) ps)) h -> Inv ps (arun s h).
Proof. intros ps ND h s HI Hh. exact (arun_inv ps ND h s Hh HI). Qed.
Print Assumptions C01_reserves_match_bank.

Theorem C01_no_drift_either_direction : forall (ps : list nat), NoDup ps ->
  forall h s p d, Inv ps s -> Forall (Forall (fun o => In (pool_of o) ps)) h ->
  reserve (arun s h) p d <= pbank (arun s h) p d /\
  pbank (arun s h) p d - reserve (arun s h) p d = donated (arun s h) p d.
Proof. intros ps _ h s p d [Hb _] _. destruct (arun_booked h s Hb p d). lia. Qed.
Print Assumptions C01_no_drift_either_direction.

(* Level B. UpdatePoolForSwap + OnCollectFee as coded (in-memory pool array shared with the nested
   fee conversion that runs on a cache context; the array is restored when the conversion is
   discarded): whatever the amounts, the fee, the weight-breaking fee, and whatever the nested
   conversion does or wherever it fails, a successful swap preserves the invariant. *)
Theorem C01_swap_handler_preserves : forall (ps : list nat), NoDup ps ->
  forall s p din dout ain aout fee wb conv s',
  Inv ps s -> In p ps -> 0 <= ain -> 0 <= aout -> 0 <= wb ->
  (match conv with Some n => 0 <= n_in n /\ 0 <= n_out n | None => True end) ->
  swap_handler true s p din dout ain aout fee wb conv = Ok s' -> Inv ps s'.
Proof.
  intros ps ND s p din dout ain aout fee wb conv s' HI Hin _ _ _ _.
  exact (swap_handler_inv ps ND s p din dout ain aout fee wb conv s' HI Hin).
Qed.
Print Assumptions C01_swap_handler_preserves.

(* The code at the pinned commit (no restore): a nested conversion rejected by the AfterSwap hooks
   leaves reserve > bank balance and liquidity <> sum of reserves (repaired by a fix: commit). *)
Theorem C01_prefix_shared_array_refuted :
  Inv [0%nat] refute_s0 /\
  exists s', swap_handler false refute_s0 0 1 0 10000 30000 30 0 (Some (mkN 19 90 0 3)) = Ok s' /\
             reserve s' 0%nat 1%nat = pbank s' 0%nat 1%nat + 19 /\
             liq s' 1%nat <> sumf (fun p => reserve s' p 1%nat) [0%nat].
Proof.
  split.
  - split; [intros p d|intros d]; unfold refute_s0; cbn.
    + destruct (Nat.eqb p 0); [destruct (Nat.eqb d 0); [|destruct (Nat.eqb d 1)]|]; lia.
    + destruct (Nat.eqb d 0); [|destruct (Nat.eqb d 1)]; lia.
  - eexists. split; [vm_compute; reflexivity|]. split; vm_compute; [reflexivity|discriminate].
Qed.
Print Assumptions C01_prefix_shared_array_refuted.

(* From the EMPTY chain (no pools, no balances: the invariant holds there for every pool list), i.e. with no hypothesis
   on a start state: every history over the pools that exist keeps bank = reserve + donations and
   DenomLiquidity = sum of reserves. *)
Theorem C01_every_history_from_genesis : forall (ps : list nat), NoDup ps ->
  forall h, Forall (Forall (fun o => In (pool_of o) ps)) h -> Inv ps (arun amm_empty h).
Proof. intros ps ND h Hh. exact (arun_inv ps ND h amm_empty Hh (inv_empty ps)). Qed.
Print Assumptions C01_every_history_from_genesis.

(* What a successful primitive step changes EXACTLY at its own (pool, denom): book reserve, bank balance and liquidity
   record move by the same signed amount (a donation moves the bank balance and the donation ghost only) ... *)
Theorem C01_step_exact : forall s o s', astep s o = Ok s' ->
  reserve s' (pool_of o) (denom_of o) = reserve s (pool_of o) (denom_of o) + d_reserve o /\
  pbank s' (pool_of o) (denom_of o) = pbank s (pool_of o) (denom_of o) + d_bank o /\
  liq s' (denom_of o) = liq s (denom_of o) + d_reserve o /\
  donated s' (pool_of o) (denom_of o) = donated s (pool_of o) (denom_of o) + d_donated o.
Proof.
  intros s o s' H. destruct (astep_effect s o s' H) as (_ & Hm & Hq).
  specialize (Hm (pool_of o) (denom_of o)). specialize (Hq (denom_of o)).
  rewrite !Nat.eqb_refl in Hm. rewrite Nat.eqb_refl in Hq. tauto.
Qed.
Print Assumptions C01_step_exact.

(* ... and what it must NOT change: no other pool, no other denom of the same pool, no other liquidity record. *)
Theorem C01_step_frame : forall s o s', astep s o = Ok s' ->
  (forall p d, (p <> pool_of o \/ d <> denom_of o) ->
     reserve s' p d = reserve s p d /\ pbank s' p d = pbank s p d /\ donated s' p d = donated s p d) /\
  (forall d, d <> denom_of o -> liq s' d = liq s d).
Proof. exact astep_frame. Qed.
Print Assumptions C01_step_frame.

(* A whole transaction (successful or not) leaves every pool it does not name exactly as it was. *)
Theorem C01_tx_other_pools_untouched : forall s l p, (forall o, In o l -> pool_of o <> p) ->
  forall d, reserve (atx s l) p d = reserve s p d /\ pbank (atx s l) p d = pbank s p d /\
            donated (atx s l) p d = donated s p d.
Proof. exact atx_other_pools. Qed.
Print Assumptions C01_tx_other_pools_untouched.

(* All or nothing: a transaction one of whose steps fails leaves the whole ledger as it was. *)
Theorem C01_failed_tx_changes_nothing : forall s l, (forall s', asteps s l <> Ok s') -> atx s l = s.
Proof. intros s l. exact (run_tx_failed (fun s => asteps s l) s). Qed.
Print Assumptions C01_failed_tx_changes_nothing.

(* A payout above the book reserve, the bank balance or the liquidity record is refused (no negative book, no overdraft). *)
Theorem C01_payout_beyond_books_refused : forall s p d a,
  (reserve s p d < a \/ pbank s p d < a \/ liq s d < a) -> exists c, astep s (AOut p d a) = Err c.
Proof.
  intros s p d a H. cbn [astep]. unfold guard. destruct (0 <=? a); [|eexists; reflexivity].
  unfold bank_out. destruct (pbank s p d <? a) eqn:E1; [eexists; reflexivity|]. cbn [bind].
  unfold remove_book. cbn [reserve pbank liq donated].
  destruct (reserve s p d - a <? 0) eqn:E2; [eexists; reflexivity|].
  destruct (liq s d <? a) eqn:E3; [eexists; reflexivity|].
  apply Z.ltb_ge in E1, E2, E3. lia.
Qed.
Print Assumptions C01_payout_beyond_books_refused.

(* non-vacuity of the refusal and the all-or-nothing statements on a reachable state *)
Example C01_refusal_nonvacuous :
  let s := arun amm_empty [[AIn 0 0 100; AIn 0 1 50]; [ADonate 0 0 7]] in
  pbank s 0%nat 0%nat = 107 /\ reserve s 0%nat 0%nat = 100 /\
  astep s (AOut 0 0 101) = Err E_neg /\ atx s [AOut 0 1 20; AOut 0 0 101] = s /\
  reserve (atx s [AOut 0 1 20; AOut 0 0 100]) 0%nat 1%nat = 30.
Proof. vm_compute. repeat split. Qed.

Example C01_nonvacuous :
  let s := arun refute_s0 [[AIn 0 1 500; AOut 0 0 2000; AOut 0 1 2]; [ADonate 0 0 7]; [AOut 0 0 999999]] in
  reserve s 0%nat 0%nat = 98000 /\ pbank s 0%nat 0%nat = 98007 /\ liq s 1%nat = 20498.
Proof. vm_compute. repeat split. Qed.
