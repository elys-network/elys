(* C13 - Every liquidity-provider reward that has been credited can actually be paid.
   [step fx]/[run fx] with fx = [repaired false] = mkFx false true true true model the code AS IT IS NOW (the three
   masterchef sites below were repaired by fix: commits 2a1f010 (perp), 539e64b (dex), 953c7c5 (round); the harness
   replays the real application against exactly that setting); fx = as_coded is the code BEFORE those commits.
   [repaired fu] covers either behaviour fu of the commitment module's TotalCommitted at uncommit (the open C12
   finding). The three sites, as they stood before those commits (all in x/masterchef/keeper/abci.go):
     perp   CollectPerpRevenue: the stakers' and the provider portion were sent FROM the masterchef account although
            only the LP portion had been moved in
     dex    CollectDEXRevenue: consumerPortion := stakerRevenueCoins.Sub(providerPortion...) (protocolRevenueCoins is
            what was meant): the masterchef account paid out 2 x stakers instead of stakers + protocol
     round  UpdateLPRewards: the gas + perpetual LP amount credited was the sum of the UNtruncated decimals while the
            truncated coins were moved, and pool shares were rounded half-up (their sum can exceed 1)
   The full statement "module balance >= sum of credited, unclaimed rewards after every history" is proved for the
   code as it is now (C13_solvent) and REFUTED for the pre-fix code at each of the three sites (C13_dex_refuted,
   C13_perp_refuted, C13_dust_refuted: each also with the other two sites repaired). Everything else holds for every
   setting of the switches. *)
From Coq Require Import ZArith List Bool Lia.
From Elys Require Import Base.Res Base.Zdec Models.Chef Proofs.ChefProofs.
Import ListNotations.
Open Scope Z_scope.

(* Repaired model, every history (deposits, withdrawals, claims, incentive funding, failed transactions, end blockers
   with any collected amounts, any revenue coins in any denoms, any proxy TVLs; any accounts, pools, parameters with
   lp + stakers <= 1 and provider portion <= 1), every denom: the module balance covers the EXACT liabilities
   (pending + acc*balance - debt, at scale 10^36) plus the incentive funding not yet credited; hence also the sum of
   the truncated amounts ClaimRewards would pay. No bound on the number of checkpoints is needed: every rounding
   in UpdateUserRewardPending / UpdateUserRewardDebt / ClaimRewards is in the module's favour (debt is exact). *)
Theorem C13_solvent : forall fu P n m h ops d, wf_params P ->
  let s := run (repaired fu) P (init_state n m h) ops in
  owed s d + reserved s d * (ONE * ONE) <= chef s d * (ONE * ONE) /\
  sum_claimable s d + reserved s d <= chef s d /\ 0 <= sum_claimable s d /\ 0 <= reserved s d.
Proof.
  intros fu P n m h ops d WP s. destruct (run_init (repaired fu) P n m h ops WP) as (W & _ & _ & S). fold s in W, S.
  specialize (S (repaired_fixed fu) d). unfold slack in S. destruct (sum_claimable_le_owed s d W) as [C0 C1].
  pose proof (reserved_nonneg s d W). pose proof ONE_pos.
  split; [lia|]. split; [nia|]. split; assumption.
Qed.
Print Assumptions C13_solvent.

(* ... so after every history every sequence of claims, by any accounts for any pool lists in any order, succeeds *)
Theorem C13_claims_in_any_order : forall fu P n m h ops cl, wf_params P ->
  let s := run (repaired fu) P (init_state n m h) ops in
  (forall u ps, In (u, ps) cl -> (u < n)%nat) -> exists s', claims s cl = Ok s'.
Proof.
  intros fu P n m h ops cl WP s Hu. destruct (run_init (repaired fu) P n m h ops WP) as (W & En & Em & S).
  pose proof (claims_payer n m cl Hu s W En Em) as C. cbv beta in C.
  destruct (claims s cl) as [s'| |]; [eexists; reflexivity|destruct (C (S (repaired_fixed fu)))..].
Qed.
Print Assumptions C13_claims_in_any_order.

(* per block: the liabilities added by a block never exceed what the block added to the module balance plus the
   incentive funding it released (repaired model) *)
Theorem C13_block_credit_le_collected : forall fu P n m h ops b s' d, wf_params P ->
  let s := run (repaired fu) P (init_state n m h) ops in
  block (repaired fu) P s b = Ok s' ->
  owed s' d - owed s d <= (chef s' d - chef s d) * (ONE * ONE) + (reserved s d - reserved s' d) * (ONE * ONE).
Proof.
  intros fu P n m h ops b s' d WP s H. destruct (run_init (repaired fu) P n m h ops WP) as (W & _).
  destruct (block_spec (repaired fu) P s b s' WP W H) as (_ & _ & N).
  specialize (N (repaired_fixed fu) d). unfold slack in N. lia.
Qed.
Print Assumptions C13_block_credit_le_collected.

(* Code as it is (every setting of the switches): committing or uncommitting shares (and the write-through pending-reward
   query the tier module issues) changes nobody's claimable reward - a deposit just before a distribution earns nothing from earlier blocks ... *)
Theorem C13_no_retroactive_accrual : forall fx P n m h ops o s', wf_params P ->
  let s := run fx P (init_state n m h) ops in
  (exists u p a, o = ODeposit u p a \/ o = OWithdraw u p a \/ o = OTouch u) ->
  step fx P s o = Ok s' ->
  forall u' p' d, pending_total s' u' p' d = pending_total s u' p' d.
Proof.
  intros fx P n m h ops o s' WP s (u & p & a & [->|[->| ->]]) H;
  destruct (run_init fx P n m h ops WP) as (W & _); cbn [step] in H.
  - apply (deposit_spec s u p a s' W H).
  - apply (withdraw_spec fx s u p a s' W H).
  - apply (touch_spec s u s' W H).
Qed.
Print Assumptions C13_no_retroactive_accrual.

(* ... and a block credits nothing to an account without committed shares in the pool. *)
Theorem C13_accrual_needs_shares : forall fx P n m h ops b s' u p d, wf_params P ->
  let s := run fx P (init_state n m h) ops in
  block fx P s b = Ok s' -> bal s u p = 0 ->
  pending_total s' u p d = pending_total s u p d /\ bal s' u p = 0.
Proof.
  intros fx P n m h ops b s' u p d WP s H B. destruct (run_init fx P n m h ops WP) as (W & _). fold s in W.
  destruct (block_spec fx P s b s' WP W H) as (W' & [_ _ _ Eb Ep _ _] & _).
  rewrite Eb. split; [|exact B]. rewrite !pending_no_shares, Ep by (rewrite ?Eb; assumption). reflexivity.
Qed.
Print Assumptions C13_accrual_needs_shares.

(* The code BEFORE the three fix: commits violates solvency; minimal witnesses (one pool, one provider with 10^18 shares, one block),
   each also with the two OTHER sites repaired: *)
Theorem C13_dex_refuted :
  let s := run as_coded P0 (init_state 1 1 10) dex_ops in
  chef s USDC = 15000000 /\ claimable s 0 0 USDC = 18000000 /\ step as_coded P0 s (OClaim 0 [0%nat]) = Err E_funds /\
  let s1 := run (mkFx false true false true) P0 (init_state 1 1 10) dex_ops in
  chef s1 USDC = 15000000 /\ claimable s1 0 0 USDC = 18000000.
Proof. vm_compute. repeat split. Qed.
Print Assumptions C13_dex_refuted.

Theorem C13_perp_refuted :
  let s := run as_coded P0 (init_state 1 1 10) perp_ops in
  chef s USDC = 312500 /\ claimable s 0 0 USDC = 600000 /\ step as_coded P0 s (OClaim 0 [0%nat]) = Err E_funds /\
  let s1 := run (mkFx false false true true) P0 (init_state 1 1 10) perp_ops in
  chef s1 USDC = 312500 /\ claimable s1 0 0 USDC = 600000.
Proof. vm_compute. repeat split. Qed.
Print Assumptions C13_perp_refuted.

Theorem C13_dust_refuted :
  let s := run as_coded P0 (init_state 1 1 10) dust_ops in
  chef s USDC = 0 /\ claimable s 0 0 USDC = 1 /\ step as_coded P0 s (OClaim 0 [0%nat]) = Err E_funds /\
  let s1 := run (mkFx false true true false) P0 (init_state 1 1 10) dust_ops in
  chef s1 USDC = 0 /\ claimable s1 0 0 USDC = 1.
Proof. vm_compute. repeat split. Qed.
Print Assumptions C13_dust_refuted.

(* The repaired model and the code agree off the listed sites: every transaction is the same function, and the two
   end blockers leave the same balances, pendings, debts, totals and height (they differ in money moved and credit). *)
Theorem C13_fixed_same_off_sites : forall fx fx' P s o, fx_unc fx = fx_unc fx' ->
  (forall b, o <> OBlock b) -> step fx P s o = step fx' P s o.
Proof.
  intros fx fx' P s o E H. destruct o; cbn [step]; try reflexivity.
  - unfold withdraw. rewrite E. reflexivity.
  - destruct (H b eq_refl).
Qed.
Print Assumptions C13_fixed_same_off_sites.

Theorem C13_fixed_same_book_in_blocks : forall fx fx' P s b s1 s2, wf_params P -> WF s ->
  block fx P s b = Ok s1 -> block fx' P s b = Ok s2 ->
  bal s1 = bal s2 /\ pend s1 = pend s2 /\ debt s1 = debt s2 /\ tot s1 = tot s2 /\ height s1 = height s2.
Proof.
  intros fx fx' P s b s1 s2 WP W H1 H2.
  destruct (block_spec fx P s b s1 WP W H1) as (_ & [A1 A2 A3 A4 A5 A6 A7] & _), (block_spec fx' P s b s2 WP W H2) as (_ & [B1 B2 B3 B4 B5 B6 B7] & _).
  repeat split; congruence.
Qed.
Print Assumptions C13_fixed_same_book_in_blocks.

(* non-vacuity: on the three witness histories the repaired model pays exactly what it credits *)
Example C13_nonvacuous :
  (let s := run (repaired false) P0 (init_state 1 1 10) dex_ops in chef s USDC = 18000000 /\ claimable s 0 0 USDC = 18000000) /\
  (let s := run (repaired false) P0 (init_state 1 1 10) perp_ops in chef s USDC = 600000 /\ claimable s 0 0 USDC = 600000) /\
  (let s := run (repaired false) P0 (init_state 1 1 10) dust_ops in chef s USDC = 0 /\ claimable s 0 0 USDC = 0).
Proof. vm_compute. repeat split. Qed.
