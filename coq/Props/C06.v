(* C06 - The lending vault's stated value always equals cash plus outstanding loans.
   Model in Models/VaultLedger.v (x/stablestake Bond / Unbond / Borrow / Repay / UpdateInterestStacked and the
   leveragelp callers as compositions of them, as the code is).
   A history is a list of transactions / blocks, each a list of primitive vault operations executed all or
   nothing; amounts, interest amounts and redemption amounts are arbitrary integers (the machine refuses
   what the code refuses). loans v = sum over the stored Debt records of Borrowed + InterestStacked - InterestPaid. *)
From Coq Require Import ZArith List Bool Arith Lia.
From Elys Require Import Base.Res Base.Fn Models.SumLedger Models.VaultLedger Proofs.VaultLedgerProofs Proofs.VaultLedgerFrame.
Import ListNotations.
Open Scope Z_scope.

(* The property over its own quantifier: for EVERY history of deposits, withdrawals, borrowing, repayment
   (partial closes, full closes, liquidations that repay less than is owed, add-collateral), lazy interest
   accrual with any interest amounts, failing transactions included, of any length:
   TotalValue = cash + loans, exactly. *)
Theorem C06_vault_equation : forall h, no_donation h ->
  let v := vrun vstep vault_empty h in v_tv v = v_cash v + loans v.
Proof.
  intros h Hn. cbv zeta. rewrite <- (vrun_fixed_eq h Hn).
  destruct (vrun_fixed_inv0 h vault_empty vault_empty_inv0) as [(HE & _) H0]. lia.
Qed.
Print Assumptions C06_vault_equation.

(* The code BEFORE fix: a75f29f ([vstep], which still accepts [VDonate]), EVERY history including third-party
   transfers into the module account (a swap whose recipient is the vault): the equation holds up to exactly the sum
   received that way, and never the other way round (cash + loans is never below TotalValue; loans are never negative). *)
Theorem C06_vault_equation_with_receipts : forall h,
  let v := vrun vstep vault_empty h in
  v_tv v + v_don v = v_cash v + loans v /\ 0 <= v_don v /\ 0 <= loans v.
Proof.
  intros h. cbv zeta. destruct (vrun_inv h vault_empty vault_empty_inv) as (HE & (_ & _ & HR & _) & HD).
  repeat split; auto. apply sumf_nonneg. intros k _. destruct (HR k). unfold liab. lia.
Qed.
Print Assumptions C06_vault_equation_with_receipts.

(* the same as an inductive invariant from any state satisfying it *)
Theorem C06_invariant : forall h v, VInv v -> VInv (vrun vstep v h).
Proof. intros h v. exact (vrun_inv h v). Qed.
Print Assumptions C06_invariant.

(* REFUTED for the code BEFORE fix: a75f29f, when ALL histories reachable then are admitted: after a deposit of 100, a swap
   that pays 5 to the module account leaves TotalValue 100 against cash + loans 105
   (real app: harness corpus history "swap recipient = vault", signature C06:swap-recipient-vault-inflates-cash). *)
Theorem C06_donation_refuted :
  exists h, let v := vrun vstep vault_empty h in
    v_tv v <> v_cash v + loans v /\ v_cash v + loans v - v_tv v = 5.
Proof. exists [[VBond 100]; [VDonate 5]]. vm_compute. split; [discriminate|reflexivity]. Qed.
Print Assumptions C06_donation_refuted.

(* ... and what it costs: the 90 % cap works on TotalValue - balance; after a donation the real loans can
   reach 100 % of TotalValue. *)
Theorem C06_donation_cap_bypass_refuted :
  exists h, let v := vrun vstep vault_empty h in
    10 * loans v > 9 * v_tv v /\ loans v = 1000 /\ v_tv v = 1000.
Proof.
  exists [[VBond 1000]; [VBorrow 0 900 0]; [VDonate 900]; [VBorrow 1 100 0]].
  vm_compute. repeat split.
Qed.
Print Assumptions C06_donation_cap_bypass_refuted.

(* THE CODE AS IT IS since fix: a75f29f ([vstep_fixed]: a transfer whose recipient is the module account is
   refused - the amm swap handlers consult bank's blocked-address list; it differs from [vstep] at that one
   site): the full-strength statement for EVERY history, attempted donations included. This is the machine
   the correspondence run (Run/VaultLedgerRun.v) replays the real application against. *)
Theorem C06_vault_equation_fixed : forall h,
  let v := vrun vstep_fixed vault_empty h in v_tv v = v_cash v + loans v /\ VWf v.
Proof.
  intros h. cbv zeta. destruct (vrun_fixed_inv0 h vault_empty vault_empty_inv0) as [(HE & HW & _) H0].
  split; [lia|exact HW].
Qed.
Print Assumptions C06_vault_equation_fixed.

Theorem C06_step_eq_fixed_off_sites : forall v o, is_donate o = false -> vstep_fixed v o = vstep v o.
Proof. exact step_eq_fixed_off_sites. Qed.
Print Assumptions C06_step_eq_fixed_off_sites.

Theorem C06_run_eq_fixed_without_donation : forall h, no_donation h -> forall v, vrun vstep_fixed v h = vrun vstep v h.
Proof. exact vrun_fixed_eq. Qed.
Print Assumptions C06_run_eq_fixed_without_donation.

(* Liquidation with a shortfall: a repayment smaller than principal + accrued interest writes nothing off.
   The record stays, it carries exactly the unpaid remainder, TotalValue moves only by the interest stacked
   in that call, cash by the amount paid: both sides of the equation move together. *)
Theorem C06_shortfall_keeps_the_debt : forall v k a i v', VInv v -> vstep v (VRepay k a i) = Ok v' -> a < liab v k + i ->
  In k (v_keys v') /\ liab v' k = liab v k + i - a /\ 0 < liab v' k /\
  v_tv v' = v_tv v + i /\ v_cash v' = v_cash v + a /\ loans v' = loans v + i - a.
Proof.
  intros v k a i v' (_ & HW & _) H Hlt.
  destruct (vrepay_ok v k a i v' HW H) as (_ & _ & _ & T & C & _ & L & Lo & K).
  repeat split; auto; try lia. apply K, Hlt.
Qed.
Print Assumptions C06_shortfall_keeps_the_debt.

(* A Debt record disappears only by a repayment of exactly everything that is owed. *)
Theorem C06_delete_only_when_settled : forall v k a i v', VInv v -> vstep v (VRepay k a i) = Ok v' ->
  ~ In k (v_keys v') -> In k (v_keys v) -> a = liab v k + i /\ liab v' k = 0.
Proof.
  intros v k a i v' (_ & HW & _) H Hgone _.
  destruct (vrepay_ok v k a i v' HW H) as (_ & A & _ & _ & _ & _ & L & _ & K). rewrite K in Hgone. lia.
Qed.
Print Assumptions C06_delete_only_when_settled.

(* What rests on the equation: without third-party receipts the quantity the code derives as
   TotalValue - balance (borrow cap, borrow-ratio query, interest-rate controller, leveragelp's
   MaxLeverageRatio check) IS the sum of the liabilities, and right after every successful Borrow the real
   loans (less the interest stacked by that call) are within 90 % of TotalValue. *)
Theorem C06_cap_bounds_real_loans : forall v k a i v', VInv0 v -> vstep v (VBorrow k a i) = Ok v' ->
  v_tv v - v_cash v = loans v /\ 10 * (loans v' - i) <= 9 * v_tv v.
Proof.
  intros v k a i v' [(HE & HW & _) H0] H. apply vstep_ok in H as (_ & _ & C & ->). split; [lia|].
  rewrite loans_put by exact HW. unfold liab. lia.
Qed.
Print Assumptions C06_cap_bounds_real_loans.

(* FRAME. A step on one borrower's debt record (borrow, repay, interest accrual) leaves every OTHER borrower's record
   (Borrowed, InterestStacked, InterestPaid) exactly as it was; bonds, unbonds and third-party receipts touch no record. *)
Theorem C06_other_borrowers_untouched_step : forall v o v', vstep v o = Ok v' ->
  forall k', borrower_of o <> Some k' -> same_record v v' k'.
Proof. exact vstep_other_borrowers. Qed.
Print Assumptions C06_other_borrowers_untouched_step.

(* ... over EVERY history of transactions (failing ones rolled back): a borrower no step names keeps its record
   (nobody's repayment or liquidation lowers, and nobody's borrowing raises, another position's debt). *)
Theorem C06_other_borrowers_untouched : forall h v k', (forall l o, In l h -> In o l -> borrower_of o <> Some k') ->
  same_record v (vrun vstep v h) k'.
Proof. exact vrun_other_borrowers. Qed.
Print Assumptions C06_other_borrowers_untouched.

(* The module account never pays out more than it holds: a redemption or a loan above the cash is refused. *)
Theorem C06_payout_beyond_cash_refused : forall v,
  (forall p, v_cash v < p -> exists c, vstep v (VUnbond p) = Err c) /\
  (forall k a i, v_cash v < a -> exists c, vstep v (VBorrow k a i) = Err c).
Proof.
  intros v. split.
  - intros p H. apply Z.leb_gt in H. cbn [vstep]. rewrite H. destruct (0 <? p); eexists; reflexivity.
  - intros k a i H. apply Z.leb_gt in H. cbn [vstep]. rewrite H.
    destruct (int_ok v k i), (0 <? a), (negb _); eexists; reflexivity.
Qed.
Print Assumptions C06_payout_beyond_cash_refused.

Example C06_nonvacuous :
  let v := vrun vstep vault_empty
    [[VBond 1000000]; [VBorrow 0 400000 0; VAccrue 0 0]; [VAccrue 0 1234]; [VBond 7];
     [VAccrue 0 66; VRepay 0 100000 0; VAccrue 0 0];
     [VBorrow 1 300000 0]; [VUnbond 999999];
     [VUnbond 250000];
     [VRepay 1 200000 5000];
     [VRepay 0 301300 0]] in
  v_tv v = 756307 /\ v_cash v = 651307 /\ v_keys v = [1%nat] /\ liab v 1%nat = 105000 /\
  v_b v 0%nat = 0 /\ v_tv v = v_cash v + loans v.
Proof. vm_compute. repeat split. Qed.
