(* C05 - Joining and exiting a pool cannot extract value from other liquidity providers.
   Model in Models/AmmJoinExit.v. R = reserves in PoolAssets order, S = total shares, all over unbounded Z.
   [enum amts] is a well-formed sdk.Coins value (one coin per pool asset, in denom order). The two
   [_prefix_refuted] theorems are about the code before the commits "fix:" 383287d and 1c2976e (the witnesses
   are replayed on the real application by harness/c05_test.go c05Corpus, which must reject them). *)
From Coq Require Import ZArith List Bool Lia.
From Elys Require Import Base.Res Base.Zdec Models.AmmJoinExit Proofs.AmmJoinExitProofs.
From Elys Require Models.AmmSwap Proofs.PowJoin.
From Elys Require Models.WeightFee Models.WeightFeeJoinExit Proofs.WeightFeeProofs Proofs.WeightFeeJoinExitProofs.
Import ListNotations.
Open Scope Z_scope.

(* All-asset join with the tokens given (MaximalExactRatioJoin): for EVERY asset the minted shares
   are worth at most what was joined (sh * R_i <= joined_i * S, no slack), joined_i <= offered_i, the
   book grows by exactly joined_i / sh, and the reserve per share of those left behind does not fall. *)
Theorem C05_join_shares_le_deposit : forall R S amts sh j R' S',
  Forall (fun r => 0 < r) R -> 0 <= S -> Forall (fun a => 0 <= a) amts ->
  join_coins R S (enum amts) = Ok (sh, j, R', S') ->
  length j = length R /\ S' = S + sh /\ 0 <= sh /\
  forall i, (i < length R)%nat ->
    sh * nth i R 0 <= nth i j 0 * S /\ 0 <= nth i j 0 <= nth i amts 0 /\
    nth i R' 0 = nth i R 0 + nth i j 0 /\
    nth i R 0 * S' <= nth i R' 0 * S.
Proof. intros R S amts sh j R' S' HR HS Ha H. exact (proj1 (join_enum_spec R S amts sh j R' S' HR HS Ha H)). Qed.
Print Assumptions C05_join_shares_le_deposit.

(* All-asset join for a requested number of shares (GetMaximalNoSwapLPAmount rounds the needed tokens
   up, JoinPool recomputes the shares from them rounding down): same guarantees, and never more than
   the quoted tokens is charged. *)
Theorem C05_join_requested_shares_le_deposit : forall R S so needed sh j R' S',
  Forall (fun r => 0 < r) R -> 0 <= S ->
  join_shares R S so = Ok (needed, (sh, j, R', S')) ->
  length j = length R /\ S' = S + sh /\ 0 <= sh /\
  forall i, (i < length R)%nat ->
    sh * nth i R 0 <= nth i j 0 * S /\ 0 <= nth i j 0 <= nth i needed 0 /\
    nth i R' 0 = nth i R 0 + nth i j 0 /\
    nth i R 0 * S' <= nth i R' 0 * S.
Proof. intros R S so needed sh j R' S' HR HS H. exact (proj1 (join_shares_spec R S so needed sh j R' S' HR HS H)). Qed.
Print Assumptions C05_join_requested_shares_le_deposit.

(* Pro-rata exit: out_i * S <= sh * R_i for every asset, the book falls by exactly out_i / sh, at least
   one unit of every reserve and one share stay, the reserve per share of those left behind does not fall. *)
Theorem C05_exit_le_prorata : forall R S sh outs R' S',
  Forall (fun r => 0 < r) R -> 0 <= sh ->
  exit_prorata R S sh = Ok (outs, R', S') ->
  S' = S - sh /\ 1 <= S' /\
  forall i, (i < length R)%nat ->
    0 <= nth i outs 0 /\ nth i outs 0 * S <= sh * nth i R 0 /\
    nth i R' 0 = nth i R 0 - nth i outs 0 /\ 1 <= nth i R' 0 /\
    nth i R 0 * S' <= nth i R' 0 * S.
Proof.
  intros R S sh outs R' S' HR Hsh H. destruct (exit_spec _ _ _ _ _ _ HR Hsh H) as (Hlt & -> & _ & Hi).
  split; [reflexivity|]. split; [lia|]. intros i Hl. destruct (Hi i Hl) as (A & B & C & D). rewrite C in *.
  repeat split; lia.
Qed.
Print Assumptions C05_exit_le_prorata.

(* Join (either form), then exit any part of the shares just minted: asset by asset at most what was
   deposited comes back - exactly, the arithmetic leaves no slack at all. *)
Theorem C05_join_then_exit_le_deposit : forall R S amts sh j R' S' t outs R'' S'',
  Forall (fun r => 0 < r) R -> 0 <= S -> Forall (fun a => 0 <= a) amts ->
  join_coins R S (enum amts) = Ok (sh, j, R', S') -> 0 <= t <= sh ->
  exit_prorata R' S' t = Ok (outs, R'', S'') ->
  forall i, (i < length R)%nat -> nth i outs 0 <= nth i j 0 <= nth i amts 0.
Proof.
  intros R S amts sh j R' S' t outs R'' S'' HR HS Ha Hj Ht He.
  destruct (join_enum_spec _ _ _ _ _ _ _ HR HS Ha Hj) as (F & Lr). exact (fair_join_then_exit _ _ _ _ _ _ _ _ _ _ _ HR HS F Lr Ht He).
Qed.
Print Assumptions C05_join_then_exit_le_deposit.

Theorem C05_join_requested_then_exit_le_deposit : forall R S so needed sh j R' S' t outs R'' S'',
  Forall (fun r => 0 < r) R -> 0 <= S ->
  join_shares R S so = Ok (needed, (sh, j, R', S')) -> 0 <= t <= sh ->
  exit_prorata R' S' t = Ok (outs, R'', S'') ->
  forall i, (i < length R)%nat -> nth i outs 0 <= nth i j 0 <= nth i needed 0.
Proof.
  intros R S so needed sh j R' S' t outs R'' S'' HR HS Hj Ht He.
  destruct (join_shares_spec _ _ _ _ _ _ _ _ HR HS Hj) as (F & Lr). exact (fair_join_then_exit _ _ _ _ _ _ _ _ _ _ _ HR HS F Lr Ht He).
Qed.
Print Assumptions C05_join_requested_then_exit_le_deposit.

(* An exit accepted by the keeper (0 < shares < total) never empties a reserve nor burns all shares. *)
Theorem C05_exit_never_empties : forall R S sh outs R' S',
  Forall (fun r => 1 <= r) R ->
  keeper_exit R S sh = Ok (outs, R', S') ->
  1 <= S' /\ length R' = length R /\ Forall (fun r => 1 <= r) R'.
Proof.
  intros R S sh outs R' S' _ H. apply keeper_exit_spec in H. exact (exit_never_empties _ _ _ _ _ _ (proj2 H)).
Qed.
Print Assumptions C05_exit_never_empties.

(* Every history of well-formed all-asset joins (both forms) and exits, failed transactions included,
   any length: for every asset the reserve per share never ends below where it started
   (R_i * S_final <= R_i_final * S), reserves and supply stay >= 1. *)
Theorem C05_value_per_share_monotone : forall R S ops,
  Forall (fun r => 0 < r) R -> 0 < S ->
  let s' := run (R, S) ops in
  Forall (fun r => 1 <= r) (fst s') /\ 1 <= snd s' /\ length (fst s') = length R /\
  forall i, (i < length R)%nat -> nth i R 0 * snd s' <= nth i (fst s') 0 * S.
Proof.
  intros R S ops HR HS s'. subst s'. destruct (run_keeps ops (R, S) (conj HR HS)) as [[P1 P2] [L V]].
  split; [eapply Forall_impl; [|exact P1]; cbn; intros; lia|]. split; [lia|]. split; [exact L|exact V].
Qed.
Print Assumptions C05_value_per_share_monotone.

(* Oracle pool, single-sided join: with jv the joined value, T the pool's TVL and wbf the weight-breaking
   fee as computed by the implementation (raw 18-decimal integers), the minted shares are worth at most
   the joined value plus one share unit (RoundInt). *)
Theorem C05_oracle_join_value : forall S jv T wbf,
  0 <= S -> 0 <= jv -> 0 < T -> 0 <= wbf <= PREC ->
  0 <= oracle_join_shares S jv T wbf /\ oracle_join_shares S jv T wbf * T <= S * jv + T.
Proof. exact oracle_join_value. Qed.
Print Assumptions C05_oracle_join_value.

(* Oracle pool, single-sided exit: the amount paid is worth at most the pro-rata share of the TVL plus
   one base unit of the asset (+ 10^-18 of value); the fee only reduces it. *)
Theorem C05_oracle_exit_value : forall T S sh p wbf,
  0 <= T -> 0 < S -> 0 <= sh -> 0 < p -> 0 <= wbf <= PREC ->
  let '(pre, out) := oracle_exit_out T S sh p wbf in
  0 <= out <= pre /\ out * p * S <= T * sh + S * (p + 1).
Proof. exact oracle_exit_value. Qed.
Print Assumptions C05_oracle_exit_value.

(* The tokens of an all-asset join are USER input that MsgJoinPool.ValidateBasic checks coin by coin only
   (unsorted lists, repeated denoms and zero amounts get through, and for oracle pools the list is handed
   to Pool.JoinPool as it is). For EVERY such list that the join accepts, the list is a well-formed coin
   set (one coin per pool asset, pool order) and the guarantees of C05_join_shares_le_deposit hold. *)
Theorem C05_join_user_coins_le_deposit : forall R S (t : list coin) sh j R' S',
  Forall (fun r => 0 < r) R -> 0 <= S -> Forall (fun c : coin => 0 <= snd c) t ->
  join_coins R S t = Ok (sh, j, R', S') ->
  t = enum (map snd t) /\
  length j = length R /\ S' = S + sh /\ 0 <= sh /\
  forall i, (i < length R)%nat ->
    sh * nth i R 0 <= nth i j 0 * S /\ 0 <= nth i j 0 <= nth i (map snd t) 0 /\
    nth i R' 0 = nth i R 0 + nth i j 0 /\
    nth i R 0 * S' <= nth i R' 0 * S.
Proof.
  intros R S t sh j R' S' HR HS Ht H. pose proof (join_accepts_only_coin_sets _ _ _ _ H) as Et.
  split; [exact Et|]. rewrite Et in H. apply (join_enum_spec R S (map snd t)); try assumption.
  apply Forall_map. exact Ht.
Qed.
Print Assumptions C05_join_user_coins_le_deposit.

Theorem C05_join_duplicate_denom_rejected : forall R S t,
  has_dup t = true -> is_ok (join_coins R S t) = false.
Proof.
  intros R S t Hd. destruct (join_coins R S t) as [r| |] eqn:E; try reflexivity.
  apply join_coins_ok in E. destruct E as [E _]. congruence.
Qed.
Print Assumptions C05_join_duplicate_denom_rejected.

(* Single-sided exit of an oracle pool, for all inputs (TVL, prices, accounted balances, fee): an accepted
   exit books exactly reserve - out for the exit asset, leaves the other reserves alone, and leaves every
   reserve >= 1 and at least one share. *)
Theorem C05_oracle_exit_never_empties : forall R S sh k acc prices weights wbf out R' S',
  exit_oracle R S sh k acc prices weights wbf = Ok (out, R', S') ->
  sh < S /\ S' = S - sh /\ length R' = length R /\ Forall (fun r => 1 <= r) R' /\
  ((k < length R)%nat -> nth k R' 0 = nth k R 0 - out) /\
  (forall i, (i < length R)%nat -> i <> k -> nth i R' 0 = nth i R 0).
Proof.
  intros R S sh k acc prices weights wbf out R' S' H. apply (exit_oracle_ok true) in H. destruct H as (Hlt & E & Ha).
  split; [exact Hlt|]. split; [exact E|]. exact (apply_exit_point R k out R' Ha).
Qed.
Print Assumptions C05_oracle_exit_never_empties.

(* REFUTED for the code BEFORE fix: 383287d (join_coins_prefix = CalcJoinPoolNoSwapShares without the
   repeated-denom check): with a duplicated denom the shares are worth more than the deposit, and
   join + exit takes value out of the other LPs. Replayed on the real application by c05Corpus()[0],
   which must be REJECTED there. *)
Theorem C05_join_duplicate_denom_prefix_refuted :
  exists sh j R' S' outs R'' S'',
    Forall (fun r => 0 < r) dup_R /\ coins_sorted dup_tokens = true /\
    join_coins_prefix dup_R dup_S dup_tokens = Ok (sh, j, R', S') /\
    nth 0 j 0 = 0 /\ nth 1 j 0 = 100000000 /\
    ~ (sh * nth 0 dup_R 0 <= nth 0 j 0 * dup_S) /\
    exit_prorata R' S' sh = Ok (outs, R'', S'') /\
    5 * nth 0 outs 0 + nth 1 outs 0 > 5 * nth 0 j 0 + nth 1 j 0 + 24900000 /\
    nth 0 dup_R 0 * S'' > nth 0 R'' 0 * dup_S.
Proof.
  eexists _, _, _, _, _, _, _.
  split; [repeat constructor|]. split; [reflexivity|].
  split; [vm_compute; reflexivity|].
  split; [reflexivity|]. split; [reflexivity|].
  split; [vm_compute; intros H; apply H; reflexivity|].
  split; [vm_compute; reflexivity|].
  split; vm_compute; reflexivity.
Qed.
Print Assumptions C05_join_duplicate_denom_prefix_refuted.

(* REFUTED for the code BEFORE fix: 1c2976e (processExitPool without the emptied-reserve check): the whole
   reserve is paid out (without weight-breaking fee) and the pool keeps booking the old amount. *)
Theorem C05_oracle_exit_never_empties_prefix_refuted :
  exists out R' S',
    exit_oracle_prefix drain_R drain_S 100000000000000000000000 1 [0; 0]
                [5000000000000000000; 1000000000000000000] [10737418240; 10737418240] 0 = Ok (out, R', S') /\
    out = nth 1 drain_R 0 /\ nth 1 drain_R 0 - out = 0 /\ nth 1 R' 0 = nth 1 drain_R 0 /\
    S' = 100000000000000000000000.
Proof. eexists _, _, _. split; [vm_compute; reflexivity|]. repeat split. Qed.
Print Assumptions C05_oracle_exit_never_empties_prefix_refuted.

(* PARTIAL: single-asset join of a weighted (non-oracle) pool. The result pw of Pow is an input here.
   Full statement (not proved): with the real y^w in place of pw, (B+a)^w * S <= B^w * (S + shares)
   up to the 1e-8 relative precision of powerApproximation. Proved: whenever the implementation's
   pw = Pow(y, w) does not exceed its base y, shares * B <= S * a + S * B / 10^18. *)
Theorem C05_single_asset_join_partial : forall B w tw a fee S pw,
  0 < B -> 0 <= a -> 0 <= S -> 0 <= fee <= PREC -> 0 <= w <= tw -> 0 < tw ->
  PREC <= pw <= single_join_y B w tw a fee ->
  0 <= single_join_shares S pw /\
  single_join_shares S pw * B * PREC <= S * (a * PREC + B).
Proof. exact single_join_le_deposit. Qed.
Print Assumptions C05_single_asset_join_partial.

(* The same WITHOUT the hypothesis, for the cases in which the range of Pow is proved from its exact model
   (Models/AmmSwap.v [pow], the model the C03 harness replays against the Go Pow; Proofs/PowSeries.v, Proofs/PowJoin.v):
     - w = tw   (normalized weight 1: Pow(y,1) = y),
     - tw = 2w  (two equal weights: normalized weight 1/2, ApproxSqrt; Newton iterates stay in [1,y]),
     - w = 0    (Pow(y,0) = 1: no shares),
     - any weights when y < 2, i.e. the deposit after fee is smaller than the reserve (Maclaurin series: alternating with
       non-increasing terms, every partial sum in [1, 1 + wn*(y-1)]).
   Then 1 <= Pow(y,wn) <= y and shares*B*10^18 <= S*(a*10^18 + B). NOT covered: y >= 2 with another weight (ln/exp method). *)
Theorem C05_single_asset_join : forall B w tw a fee S pw,
  0 < B -> 0 <= a -> 0 <= S -> 0 <= fee <= PREC -> 0 <= w <= tw -> 0 < tw ->
  AmmSwap.pow (single_join_y B w tw a fee) (single_join_wn w tw) = Ok pw ->
  (w = tw \/ tw = 2 * w \/ w = 0 \/ single_join_y B w tw a fee < AmmSwap.TWO) ->
  PREC <= pw <= single_join_y B w tw a fee /\
  0 <= single_join_shares S pw /\
  single_join_shares S pw * B * PREC <= S * (a * PREC + B).
Proof.
  intros B w tw a fee S pw HB Ha HS Hfee Hw Htw Hpow Hc.
  pose proof (PowJoin.single_join_pow_range B w tw a fee pw HB Ha Hfee Hw Htw Hpow Hc) as R.
  split; [exact R|]. exact (single_join_le_deposit B w tw a fee S pw HB Ha HS Hfee Hw Htw R).
Qed.
Print Assumptions C05_single_asset_join.

(* non-vacuity of C05_single_asset_join: normalized weights 1/2 (square root), 1/4 (series, y < 2) and 1 on a reserve
   of 30e9 with 1e9 in at 0.3%: Pow succeeds and shares are minted *)
Example C05_single_asset_join_nonvacuous :
  exists pw1 pw2 pw3,
    AmmSwap.pow (single_join_y 30000000000 1 2 1000000000 3000000000000000) (single_join_wn 1 2) = Ok pw1 /\
    AmmSwap.pow (single_join_y 30000000000 1 4 1000000000 3000000000000000) (single_join_wn 1 4) = Ok pw2 /\
    AmmSwap.pow (single_join_y 30000000000 1 1 1000000000 3000000000000000) (single_join_wn 1 1) = Ok pw3 /\
    0 < single_join_shares 60000000000000000000000 pw1 /\
    0 < single_join_shares 60000000000000000000000 pw2 /\
    single_join_y 30000000000 1 4 1000000000 3000000000000000 < AmmSwap.TWO.
Proof.
  eexists _, _, _.
  split; [vm_compute; reflexivity|]. split; [vm_compute; reflexivity|]. split; [vm_compute; reflexivity|].
  split; [vm_compute; reflexivity|]. split; vm_compute; reflexivity.
Qed.

(* non-vacuity: a reachable pool, both join forms and an exit succeed and satisfy the hypotheses *)
Example C05_nonvacuous :
  let s := run ([30000000000; 10000000000], 60000000000000000000000)
               [OJoinShares 1000000000000; OJoinTokens [3000001; 1000000]; OExit 500000000000; OExit 0;
                OExit 70000000000000000000000] in
  s = ([30003000001; 10001000001], 60006000001499599979997).
Proof. vm_compute. reflexivity. Qed.

(* ---------- oracle single-sided join / exit with the WEIGHT-BREAKING FEE COMPUTED BY THE MODEL ----------
   [join_oracle_wf] / [exit_oracle_wf] (Models/WeightFeeJoinExit.v) are the whole oracle branch of Pool.JoinPool / CalcExitPool +
   processExitPool incl. WeightDistanceFromTarget before and after, GetWeightBreakingFee and the bonus decision; the fee is
   not an input. prm = (multiplier, exponent, portion, threshold); [exp_int_or_half]: exponent >= 0 with fractional part 0
   or 1/2 (the chain's 2.5). The fee lies in [0, 0.99], so C05_oracle_join_value / C05_oracle_exit_value /
   C05_oracle_exit_never_empties apply to the whole functions. *)
Theorem C05_oracle_join_value_with_fee : forall R S k amt acc prices weights prm sh R' S' bonus,
  0 <= WeightFee.wp_mult prm -> WeightFeeProofs.exp_int_or_half (WeightFee.wp_exp prm) -> 0 <= WeightFee.wp_portion prm ->
  0 <= S -> 0 <= amt -> 0 <= nth k prices 0 ->
  WeightFeeJoinExit.join_oracle_wf R S k amt acc prices weights prm = Ok (sh, R', S', bonus) ->
  exists T, tvl R acc prices weights = Ok T /\
    (0 < T -> 0 <= sh /\ sh * T <= S * dmul (nth k prices 0) (dec_of_int amt) + T) /\
    bonus <= dmul WeightFee.WBF_CAP (WeightFee.wp_portion prm).
Proof.
  intros R S k amt acc prices weights prm sh R' S' bonus Hm He Hpo HS Ha Hpr H.
  apply (WeightFeeJoinExitProofs.join_oracle_wf_spec prm Hm (WeightFeeProofs.exp_ok_pow_nonneg _ He) Hpo) in H
    as (wbf & T & _ & _ & _ & _ & HT & _ & -> & _ & _ & _ & W & B & _).
  exists T. split; [exact HT|]. split; [|exact B].
  intros HTpos. pose proof WeightFeeProofs.WBF_CAP_lt_PREC as HC. pose proof PREC_pos as HP.
  apply oracle_join_value; try lia. apply dmul_nonneg; [exact Hpr|unfold dec_of_int; lia].
Qed.
Print Assumptions C05_oracle_join_value_with_fee.

Theorem C05_oracle_join_with_fee_is_join : forall R S k amt acc prices weights prm sh R' S' bonus,
  0 <= WeightFee.wp_mult prm -> WeightFeeProofs.exp_int_or_half (WeightFee.wp_exp prm) -> 0 <= WeightFee.wp_portion prm ->
  WeightFeeJoinExit.join_oracle_wf R S k amt acc prices weights prm = Ok (sh, R', S', bonus) ->
  exists wbf, 0 <= wbf <= WeightFee.WBF_CAP /\ (bonus <= 0 -> bonus = - wbf) /\
    join_oracle R S k amt acc prices weights wbf = Ok (sh, R', S').
Proof.
  intros R S k amt acc prices weights prm sh R' S' bonus Hm He Hpo H.
  apply (WeightFeeJoinExitProofs.join_oracle_wf_spec prm Hm (WeightFeeProofs.exp_ok_pow_nonneg _ He) Hpo) in H
    as (wbf & _ & _ & _ & _ & A & _ & _ & _ & _ & _ & _ & B & _ & _ & D).
  exists wbf. auto.
Qed.
Print Assumptions C05_oracle_join_with_fee_is_join.

(* exit: paid value <= pro-rata value + one unit, and an exit NEVER earns a bonus (the code returns - fee) *)
Theorem C05_oracle_exit_value_with_fee : forall R S sh k acc prices weights prm out R' S' bonus,
  0 <= WeightFee.wp_mult prm -> WeightFeeProofs.exp_int_or_half (WeightFee.wp_exp prm) ->
  0 <= sh -> 0 < nth k prices 0 ->
  WeightFeeJoinExit.exit_oracle_wf R S sh k acc prices weights prm = Ok (out, R', S', bonus) ->
  exists T, tvl R acc prices weights = Ok T /\
    (0 <= T -> 0 <= out /\ out * nth k prices 0 * S <= T * sh + S * (nth k prices 0 + 1)) /\
    bonus <= 0.
Proof.
  intros R S sh k acc prices weights prm out R' S' bonus Hm He Hsh Hpr H.
  apply (WeightFeeJoinExitProofs.exit_oracle_wf_spec prm Hm (WeightFeeProofs.exp_ok_pow_nonneg _ He)) in H
    as (wbf & T & _ & HT & HS & Ho & W & ->).
  exists T. split; [exact HT|]. split; [|lia].
  intros HT0. pose proof WeightFeeProofs.WBF_CAP_lt_PREC as HC.
  pose proof (oracle_exit_value T S sh (nth k prices 0) wbf HT0 ltac:(lia) Hsh Hpr ltac:(lia)) as V.
  destruct (oracle_exit_out T S sh (nth k prices 0) wbf) as [pre o]. simpl in Ho. subst o. lia.
Qed.
Print Assumptions C05_oracle_exit_value_with_fee.

Theorem C05_oracle_exit_with_fee_is_exit : forall R S sh k acc prices weights prm out R' S' bonus,
  0 <= WeightFee.wp_mult prm -> WeightFeeProofs.exp_int_or_half (WeightFee.wp_exp prm) ->
  WeightFeeJoinExit.exit_oracle_wf R S sh k acc prices weights prm = Ok (out, R', S', bonus) ->
  exists wbf, 0 <= wbf <= WeightFee.WBF_CAP /\ bonus = - wbf /\ exit_oracle R S sh k acc prices weights wbf = Ok (out, R', S').
Proof.
  intros R S sh k acc prices weights prm out R' S' bonus Hm He H.
  apply (WeightFeeJoinExitProofs.exit_oracle_wf_spec prm Hm (WeightFeeProofs.exp_ok_pow_nonneg _ He)) in H
    as (wbf & _ & A & _ & _ & _ & B & C).
  exists wbf. auto.
Qed.
Print Assumptions C05_oracle_exit_with_fee_is_exit.
