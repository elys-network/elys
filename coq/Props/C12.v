(* C12 - The commitment ledger's totals, custody and lock-ups are exact.
   Statements with their final assembly; the lemmas are in Proofs/CommitProofs.v, the model in Models/Commit.v.
   [step]/[run] model the code AS IT IS; [step_fixed]/[run_fixed] = step_gen true true is the model with
   Params.TotalCommitted lowered at the two sites where the code does not lower it:
     fu: Keeper.UncommitTokens adds the amount again   (x/commitment/keeper/msg_server_uncommit_tokens.go:75)
     fb: Keeper.BurnEdenBoost deducts committed EdenB and leaves the total alone (x/commitment/keeper/commitments.go:187)
   Full statement "total d = Σ accounts' committed d after every history" is REFUTED for the code
   (C12_total_refuted, C12_burn_total_refuted), proved for the repaired model (C12_total_eq_sum), and its
   one-sided half is proved for the code (C12_total_ge_sum).  Everything else holds for the code as it is
   and is stated for every setting of the switches. *)
From Coq Require Import ZArith List Bool Lia.
From Elys Require Import Base.Res Models.Commit Proofs.CommitProofs Base.ResFacts.
Import ListNotations.
Open Scope Z_scope.

(* The code as it is: commit 100 ueden, uncommit 100 ueden -> TotalCommitted = 200ueden, nothing committed. *)
Theorem C12_total_refuted :
  let s := run (init_state 1) refute_ops in
  s_total s EDEN = 200 /\ sum_committed EDEN (s_led s) = 0 /\ a_claimed (get_acct (s_led s) 0) EDEN = 100.
Proof. vm_compute. repeat split. Qed.
Print Assumptions C12_total_refuted.

(* Second site, shown with the first one repaired: commit 100 uedenb and 100 ueden, uncommit the ueden;
   the EdenUncommitted hook burns the 100 committed uedenb; TotalCommitted[uedenb] stays 100. *)
Theorem C12_burn_total_refuted :
  let s := run_gen true false (init_state 1) refute_burn_ops in
  s_total s EDENB = 100 /\ sum_committed EDENB (s_led s) = 0 /\ s_total s EDEN = 0.
Proof. vm_compute. repeat split. Qed.
Print Assumptions C12_burn_total_refuted.

(* Code as it is, every history, every denom: the chain-wide total never falls below the sum of the
   accounts' committed amounts. *)
Theorem C12_total_ge_sum : forall n ops d,
  let s := run (init_state n) ops in sum_committed d (s_led s) <= s_total s d.
Proof. intros n ops d. exact (proj1 (proj2 (run_inv false false _ ops (init_inv _ _ n)) d)). Qed.
Print Assumptions C12_total_ge_sum.

(* Repaired model, every history (any interleaving of commits, uncommits, joins/bonds, exits/unbonds,
   liquidations, claimed-ledger operations, EdenB burns, profile changes; failed transactions included;
   any accounts, amounts, times): the total EQUALS the sum for every denom. *)
Theorem C12_total_eq_sum : forall n ops d,
  let s := run_fixed (init_state n) ops in s_total s d = sum_committed d (s_led s).
Proof. intros n ops d. exact (proj2 (proj2 (run_inv true true _ ops (init_inv _ _ n)) d) eq_refl eq_refl). Qed.
Print Assumptions C12_total_eq_sum.

(* The two models differ in nothing but the total, and only at the listed sites: result kind and ledger
   of every step coincide, and off the sites the whole step coincides. *)
Theorem C12_fixed_same_ledger : forall fu fb fu' fb' s o,
  match step_gen fu fb s o, step_gen fu' fb' s o with
  | Ok a, Ok b => s_led a = s_led b
  | Err x, Err y => x = y
  | Panic x, Panic y => x = y
  | _, _ => False
  end.
Proof. intros. unfold step_gen. destruct (core (s_led s) o) as [[l ups]| |]; cbn; auto. Qed.
Print Assumptions C12_fixed_same_ledger.

Theorem C12_fixed_same_off_sites : forall fu fb fu' fb' s o,
  total_site o = false -> step_gen fu fb s o = step_gen fu' fb' s o.
Proof.
  intros fu fb fu' fb' s o Hs. unfold step_gen. destruct (core (s_led s) o) as [[l ups]| |] eqn:C; cbn; auto.
  rewrite (fold_only_commits fu fb fu' fb' ups (core_off_site _ _ _ _ Hs C)). reflexivity.
Qed.
Print Assumptions C12_fixed_same_off_sites.

Theorem C12_histories_same_ledger : forall fu fb fu' fb' ops s1 s2,
  s_led s1 = s_led s2 -> s_led (run_gen fu fb s1 ops) = s_led (run_gen fu' fb' s2 ops).
Proof.
  intros fu fb fu' fb' ops. induction ops as [|o r IH]; intros s1 s2 E; [exact E|].
  apply IH, exec_same_ledger, E.
Qed.
Print Assumptions C12_histories_same_ledger.

(* Custody, every history, code as it is and repaired: for every bank-backed denom the module account
   holds at least Σ committed + Σ claimed. (ueden / uedenb never exist in x/bank.) *)
Theorem C12_custody_covers : forall fu fb n ops d,
  is_virtual d = false ->
  let s := s_led (run_gen fu fb (init_state n) ops) in
  sum_committed d s + sum_claimed d s <= s_mod s d.
Proof. intros fu fb n ops d Hv. exact (proj2 (proj1 (run_inv fu fb _ ops (init_inv _ _ n))) d Hv). Qed.
Print Assumptions C12_custody_covers.

(* Every reachable account: amounts, lock-up amounts, claimed and wallet balances are never negative,
   lock-ups of an entry never exceed the entry, and an account has at most one entry per denom. *)
Theorem C12_never_negative : forall fu fb n ops a,
  wf_acct (get_acct (s_led (run_gen fu fb (init_state n) ops)) a).
Proof. intros fu fb n ops a. apply inv_get, (run_inv fu fb _ ops (init_inv _ _ n)). Qed.
Print Assumptions C12_never_negative.

(* Lock-ups: Ok from a NON-liquidation uncommit (MsgUncommitTokens, keeper call, exit pool / unbond) at
   time [now] implies that what remains committed covers every lock-up with unlock > now. *)
Theorem C12_locked_not_withdrawable : forall fu fb s o a d amt now s',
  uncommit_of o = Some (a, d, amt, now, false) -> step_gen fu fb s o = Ok s' ->
  let com := a_com (get_acct (s_led s) a) in
  clocked now d com <= camt d com - amt /\ 0 <= camt d com - amt.
Proof.
  intros fu fb s o a d amt now s' U H com. apply bind_ok in H as (r & C & _).
  destruct (uncommit_op_guard _ _ _ _ _ _ _ _ U C). unfold clocked. auto.
Qed.
Print Assumptions C12_locked_not_withdrawable.

(* the same in post-state form for DeductFromCommitted itself *)
Theorem C12_deduct_keeps_locked : forall d amt now l l',
  wf_toks l -> deduct_committed d amt now false l = Ok l' ->
  camt d l' = camt d l - amt /\ 0 <= camt d l' /\ clocked now d l <= camt d l'.
Proof.
  intros d amt now l l' W H. destruct (deduct_guard _ _ _ _ _ _ H) as [A B].
  unfold clocked. rewrite (camt_deduct _ _ _ _ _ _ W H). auto.
Qed.
Print Assumptions C12_deduct_keeps_locked.

(* An account can never uncommit more than it has: error, and nothing changes (liquidation included). *)
Theorem C12_no_overdraw : forall fu fb s o a d amt now liq,
  uncommit_of o = Some (a, d, amt, now, liq) ->
  camt d (a_com (get_acct (s_led s) a)) < amt ->
  (exists e, step_gen fu fb s o = Err e) /\ exec_gen fu fb s o = s.
Proof.
  intros fu fb s o a d amt now liq U L.
  destruct (core_uncommit (s_led s) o _ _ _ _ _ U) as (st & re & rb & _ & K).
  destruct (uncommit_overdraw (s_led s) a d amt now liq st re rb L) as (e & E). destruct (K e E) as (e' & C).
  destruct (step_err fu fb s o e' C). eauto.
Qed.
Print Assumptions C12_no_overdraw.

(* Only a liquidation overrides the lock: within the committed amount it always succeeds, whatever the
   lock-ups (the custody invariant supplies the module balance). *)
Theorem C12_liquidation_override : forall s a d amt now st re rb ce,
  Inv s -> has_acct s a = true -> s_ap s d = Some (ce, true) -> d <> EDEN ->
  In d (map t_denom (a_com (get_acct s a))) -> 0 <= amt <= camt d (a_com (get_acct s a)) ->
  exists r, uncommit s a d amt now true st re rb = Ok r.
Proof.
  intros s a d amt now st re rb ce HI Ha Hp Hd Hin [N Hamt].
  destruct (deduct_liq_ok d amt now _ Hin Hamt) as (com' & D).
  apply (uncommit_progress s a d amt now true st re rb ce com'); auto.
  intros V. pose proof (inv_mod_covers s a d HI Ha V). lia.
Qed.
Print Assumptions C12_liquidation_override.

(* non-vacuity: a locked join, a refused early exit, a liquidation that goes through, an exit at the
   unlock second; the repaired total follows *)
Example C12_nonvacuous :
  let ops := [OSetProfile 3 (Some (true, true)); OMintCommit 0 3 1000 4600; OMintCommit 0 3 500 0;
              OUncommitBurn 0 3 501 1000 false; OUncommitBurn 0 3 500 1000 false;
              OUncommit 0 3 200 1001 true 0 0 0; OUncommitBurn 0 3 800 4600 false] in
  let s := run_fixed (init_state 2) ops in let c := run (init_state 2) ops in
  a_com (get_acct (s_led s) 0) = [] /\ s_total s 3 = 0 /\ s_mod (s_led s) 3 = 0 /\
  a_wallet (get_acct (s_led s) 0) 3 = 200 /\ s_total c 3 = 3000 /\ s_led c = s_led s.
Proof. vm_compute. repeat split. Qed.
