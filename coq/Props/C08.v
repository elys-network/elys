(* C08 - Leveraged-LP pool totals equal the sum of open positions. *)
From Coq Require Import ZArith List Bool Arith Lia.
From Elys Require Import Base.Res Base.Fn Models.SumLedger Proofs.SumLedgerProofs Models.LevLedger Proofs.LevLedgerProofs Proofs.LevLedgerFrame
  Models.LevLedgerMulti Proofs.LevLedgerMultiProofs Base.ResFacts.
Import ListNotations.
Open Scope Z_scope.

(* For EVERY history of opens, consolidating re-opens, partial and full closes, stop-loss closes and
   liquidations (each item atomic), by any owners, with any positive amounts, failing items included:
   pool total = sum over stored positions, counter = number of stored positions, every stored position's
   amount = the shares committed at its address, and nothing is left committed at the address of a
   position that is no longer stored (a full close removes it and leaves none of its shares behind). *)
Theorem C08_totals : forall h, Forall (fun o => 0 < pos_amt o) h ->
  let s := lrun lev_empty h in
  total (l_sl s) = sumf (parts (l_sl s)) (keys (l_sl s)) /\
  count (l_sl s) = Z.of_nat (length (keys (l_sl s))) /\
  (forall k, In k (keys (l_sl s)) -> l_comm s k = parts (l_sl s) k) /\
  (forall k, ~ In k (keys (l_sl s)) -> l_comm s k = 0).
Proof.
  intros h Hf s. destruct (lrun_inv h lev_empty lev_empty_inv Hf) as ((_ & HT & HC & _) & HK & HN).
  repeat split; auto; intros k Hk; [apply (HK k Hk)|apply (HN k Hk)].
Qed.
Print Assumptions C08_totals.

(* the same as an inductive invariant from any state satisfying it *)
Theorem C08_invariant : forall h s, LInv s -> Forall (fun o => 0 < pos_amt o) h -> LInv (lrun s h).
Proof. exact lrun_inv. Qed.
Print Assumptions C08_invariant.

(* One item, exactly: the pool total and the shares committed at the acting position's address move by exactly the signed
   amount; NO other position's amount or committed shares move. *)
Theorem C08_step_exact_and_frame : forall s o s', lstep s o = Ok s' ->
  total (l_sl s') = total (l_sl s) + pos_delta o /\
  l_comm s' (pos_key o) = l_comm s (pos_key o) + pos_delta o /\
  (forall k, k <> pos_key o -> parts (l_sl s') k = parts (l_sl s) k /\ l_comm s' k = l_comm s k).
Proof. exact lstep_exact. Qed.
Print Assumptions C08_step_exact_and_frame.

(* Over EVERY history: a position no item names keeps its amount and its committed shares (nobody's close or liquidation
   takes shares of another position). *)
Theorem C08_other_positions_untouched : forall h s k, (forall o, In o h -> pos_key o <> k) ->
  parts (l_sl (lrun s h)) k = parts (l_sl s) k /\ l_comm (lrun s h) k = l_comm s k.
Proof. exact lrun_other_positions. Qed.
Print Assumptions C08_other_positions_untouched.

(* A close above what is committed at the position's address is refused and changes nothing. *)
Theorem C08_close_beyond_committed_no_effect : forall s k a, l_comm s k < a ->
  lstep s (LClose k a) = Err E_negative /\ lexec s (LClose k a) = s.
Proof.
  intros s k a H. pose proof (lclose_beyond_committed_refused s k a H) as E. split; [exact E|].
  apply run_tx_failed. congruence.
Qed.
Print Assumptions C08_close_beyond_committed_no_effect.

(* A close of exactly the position's amount (full close, liquidation, stop-loss) on a consistent state removes the
   position: no longer stored, nothing left committed at its address, counter down by exactly one, total down by its amount. *)
Theorem C08_full_close_removes_position : forall s k, LInv s -> In k (keys (l_sl s)) ->
  let s' := lexec s (LClose k (parts (l_sl s) k)) in
  ~ In k (keys (l_sl s')) /\ l_comm s' k = 0 /\ count (l_sl s') = count (l_sl s) - 1 /\
  total (l_sl s') = total (l_sl s) - parts (l_sl s) k.
Proof.
  intros s k ((ND & _) & HC & _) Hin. destruct (HC k Hin) as (Hc & Hpos). cbv zeta. unfold lexec, run_tx.
  erewrite (proj2 (lclose_iff s k (parts (l_sl s) k) _)) by (repeat split; auto; lia).
  cbn [l_sl l_comm keys count total]. rewrite Z.sub_diag, upd_same. cbn [Z.eqb].
  rewrite (remove_key_In _ _ _ ND). repeat split; [tauto|lia].
Qed.
Print Assumptions C08_full_close_removes_position.

(* The pinned commit: a liquidation failing after the pool exit, swallowed without a cache context,
   leaves a stored position whose amount differs from what is committed at its address. *)
Theorem C08_prefix_partial_close_refuted :
  let s := lrun lev_empty [LOpen 0 100] in
  LInv s /\ let s' := lclose_partial_failure s 0 100 in
  In 0%nat (keys (l_sl s')) /\ l_comm s' 0%nat <> parts (l_sl s') 0%nat.
Proof.
  split.
  - apply lrun_inv; [apply lev_empty_inv|]. repeat constructor.
  - cbn. split; [left; reflexivity|discriminate].
Qed.
Print Assumptions C08_prefix_partial_close_refuted.

(* SEVERAL leveraged-LP pools (Models/LevLedgerMulti.v: one machine per pool, ONE open counter for the module, every operation
   names the pool of its position). For every duplicate-free set of pools and EVERY history of opens / closes / liquidations on
   any of them, interleaved in any way: each pool's total = the sum over ITS stored positions, each stored position's amount =
   the shares committed at its address, nothing is left at the address of a position no longer stored, and the module's single
   counter = the number of stored positions of all pools together. *)
Theorem C08_totals_per_pool : forall pools h, NoDup pools ->
  Forall (fun po => In (fst po) pools /\ 0 < pos_amt (snd po)) h ->
  let s := mlrun mlev_empty h in
  (forall p, let t := ml_pool s p in
     total (l_sl t) = sumf (parts (l_sl t)) (keys (l_sl t)) /\
     (forall k, In k (keys (l_sl t)) -> l_comm t k = parts (l_sl t) k) /\
     (forall k, ~ In k (keys (l_sl t)) -> l_comm t k = 0)) /\
  ml_count s = sumf (fun p => Z.of_nat (length (keys (l_sl (ml_pool s p))))) pools.
Proof.
  intros pools h ND Hf s. destruct (mlrun_inv pools h ND mlev_empty (mlev_empty_inv pools) Hf) as (HL & HC). split.
  - intros p t. destruct (HL p) as ((_ & HT & _) & HK & HN). repeat split; auto; intros k Hk; [apply (HK k Hk)|apply (HN k Hk)].
  - unfold s. rewrite HC. apply sumf_ext. intros p _. apply (HL p).
Qed.
Print Assumptions C08_totals_per_pool.

(* a pool that no operation of a history names keeps its state: opens and closes on one pool cannot move another pool's total *)
Theorem C08_other_pools_untouched : forall h s p, Forall (fun po => fst po <> p) h -> ml_pool (mlrun s h) p = ml_pool s p.
Proof. exact mlrun_untouched. Qed.
Print Assumptions C08_other_pools_untouched.

Example C08_two_pools_nonvacuous :
  let s := mlrun mlev_empty [(0%nat, LOpen 0 100); (2%nat, LOpen 1 50); (2%nat, LOpen 2 7); (0%nat, LClose 0 30); (2%nat, LClose 1 50); (2%nat, LClose 2 9)] in
  total (l_sl (ml_pool s 0%nat)) = 70 /\ total (l_sl (ml_pool s 2%nat)) = 7 /\ ml_count s = 2 /\ keys (l_sl (ml_pool s 2%nat)) = [2%nat].
Proof. vm_compute. repeat split. Qed.

Example C08_nonvacuous :
  let s := lrun lev_empty [LOpen 0 100; LOpen 1 50; LOpen 0 20; LClose 1 50; LClose 0 30; LClose 0 500] in
  total (l_sl s) = 90 /\ count (l_sl s) = 1 /\ keys (l_sl s) = [0%nat] /\ l_comm s 1%nat = 0 /\ l_comm s 0%nat = 90.
Proof. vm_compute. repeat split. Qed.
