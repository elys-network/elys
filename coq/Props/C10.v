(* C10 - Others can force-close a position only when allowed; new positions start healthy.
   Statements with their final assembly; the lemmas are in Proofs/CloseGuardProofs.v and Proofs/HealthProofs.v.
   Model: Models/CloseGuard.v (the decision layer of x/leveragelp and x/perpetual exactly as coded; health,
   prices and pay-outs are inputs resolved from the implementation at the moment of each decision, the
   theorems quantify over ALL of them). *)
From Coq Require Import ZArith List Bool Lia.
From Elys Require Import Base.Res Models.CloseGuard Proofs.CloseGuardProofs Run.CloseGuardRun.
From Elys Require Import Base.Zdec Models.Health Proofs.HealthProofs.
Import ListNotations.
Open Scope Z_scope.

(* For EVERY state (any positions of any owners in both modules, any balances, any safety factors), EVERY
   list of third-party items (close-positions requests of either module in any order, begin-block sweep
   items; arbitrary (owner,id) pairs, repeated, non-existent) and ALL resolved healths / prices / pay-outs:
   if the size net of settled interest and funding, the collateral, the debt principal, the stop-loss /
   take-profit trigger or the side of a position differs afterwards, then one of the items named exactly
   that position, the position existed, and the item's guard (as the code evaluates it, on the health /
   price resolved for that item and the position's own triggers) held. *)
Theorem C10_forced_change_implies_guard : forall l s m o i,
  core_at (pm m (forced_run s l)) o i <> core_at (pm m s) o i \/
  trig_at (pm m (forced_run s l)) o i <> trig_at (pm m s) o i ->
  exists k it p, In (k, it) l /\ kmod k = m /\ i_owner it = o /\ i_id it = i /\
                 pm m s o i = Some p /\ guard_of k (sf m s) (trig p) it = true.
Proof. exact forced_change_implies_guard. Qed.
Print Assumptions C10_forced_change_implies_guard.

(* ... and if any balance of an owner differs afterwards, one of the items named a position of that owner
   that existed and whose guard held. *)
Theorem C10_forced_funds_implies_guard : forall l s o d,
  st_funds (forced_run s l) o d <> st_funds s o d ->
  exists k it p, In (k, it) l /\ i_owner it = o /\
                 pm (kmod k) s o (i_id it) = Some p /\ guard_of k (sf (kmod k) s) (trig p) it = true.
Proof.
  intros l s o d H. destruct (forced_run_funds l s o d) as [E|(k & it & Hin & <- & p & Hp & Hg)]; [contradiction|].
  exists k, it, p. auto.
Qed.
Print Assumptions C10_forced_funds_implies_guard.

(* Contrapositive, per position: a position for which every item naming it evaluates to "guard false"
   survives any list of third-party requests with its size (net of accrual), collateral, principal and
   triggers as they were. *)
Theorem C10_healthy_untouched : forall (l : list (kind * item)) s m o i p,
  pm m s o i = Some p ->
  (forall k it, In (k, it) l -> kmod k = m -> i_owner it = o -> i_id it = i ->
                guard_of k (sf m s) (trig p) it = false) ->
  exists q, pm m (forced_run s l) o i = Some q /\ core q = core p /\ trig q = trig p.
Proof.
  intros l s m o i p Hp Hn. destruct (forced_run_pos l s m o i) as [E|(k & it & Hin & (A & B & C) & p0 & E & G)].
  - rewrite Hp in E. destruct (pm m (forced_run s l) o i) as [q|]; [|destruct E]. exists q. cbn in E. intuition.
  - subst m o i. rewrite Hp in E. injection E as <-. rewrite (Hn k it Hin) in G by reflexivity. discriminate.
Qed.
Print Assumptions C10_healthy_untouched.

(* The two close-positions messages, with the guards spelled out. *)
Theorem C10_lev_msg : forall s tx_ok liq stop o i,
  core_at (st_lev (lev_close_positions s tx_ok liq stop)) o i <> core_at (st_lev s) o i ->
  exists it p, i_owner it = o /\ i_id it = i /\ st_lev s o i = Some p /\
    ((In it liq /\ lev_liq_guard (st_sfl s) it = true) \/ (In it stop /\ lev_stop_guard (trig p) it = true)).
Proof.
  intros s [] liq stop o i H; [|contradiction H; reflexivity].
  destruct (forced_change_implies_guard _ s MLev o i (or_introl H)) as (k & it & p & Hin & _ & Ho & Hi & Hp & Hg).
  exists it, p. repeat split; auto.
  apply in_app_or in Hin. destruct Hin as [Hin|Hin]; apply in_tagged in Hin; destruct Hin as [-> Hin]; auto.
Qed.
Print Assumptions C10_lev_msg.

Theorem C10_perp_msg : forall s tx_ok liq stop take o i,
  core_at (st_perp (perp_close_positions s tx_ok liq stop take)) o i <> core_at (st_perp s) o i ->
  exists it p, i_owner it = o /\ i_id it = i /\ st_perp s o i = Some p /\
    ((In it liq /\ guard_of KPerpLiq (st_sfp s) (trig p) it = true) \/
     (In it stop /\ guard_of KPerpStop (st_sfp s) (trig p) it = true) \/
     (In it take /\ guard_of KPerpTake (st_sfp s) (trig p) it = true)).
Proof.
  intros s [] liq stop take o i H; [|contradiction H; reflexivity].
  destruct (forced_change_implies_guard _ s MPerp o i (or_introl H)) as (k & it & p & Hin & _ & Ho & Hi & Hp & Hg).
  exists it, p. repeat split; auto.
  apply in_app_or in Hin. destruct Hin as [Hin|Hin]; [|apply in_app_or in Hin; destruct Hin as [Hin|Hin]];
    apply in_tagged in Hin; destruct Hin as [-> Hin]; auto.
Qed.
Print Assumptions C10_perp_msg.

(* What the guards mean: health AT OR BELOW the safety factor (so health = safety factor liquidates, one
   ulp above does not), price at or beyond the trigger, nil triggers never fire. *)
Theorem C10_lev_liq_guard_means : forall sfv it,
  lev_liq_guard sfv it = true -> exists h, i_health it = Some h /\ h <= sfv /\ i_liab it <> 0.
Proof. intros sfv it. apply lev_liq_guard_spec. Qed.
Print Assumptions C10_lev_liq_guard_means.

Theorem C10_lev_stop_guard_means : forall t it,
  lev_stop_guard t it = true -> exists pr slp, i_price it = Some pr /\ fst (fst t) = Some slp /\ pr <= slp.
Proof.
  intros t it. unfold lev_stop_guard, lev_stop_hit. destruct (i_health2 it); [|discriminate].
  destruct (i_price it) as [pr|]; [|discriminate]. destruct (fst (fst t)) as [slp|]; [|discriminate].
  intros H. apply Z.leb_le in H. eauto.
Qed.
Print Assumptions C10_lev_stop_guard_means.

Theorem C10_perp_liq_guard_means : forall sfv t it,
  guard_of KPerpLiq sfv t it = true -> exists h, i_health it = Some h /\ h <= sfv.
Proof.
  intros sfv t it. cbn. destruct (i_settle it); [|discriminate]. destruct (i_health it) as [h|]; [|discriminate].
  intros H. apply andb_true_iff in H. destruct H as [_ H]. apply Z.leb_le in H. eauto.
Qed.
Print Assumptions C10_perp_liq_guard_means.

Theorem C10_perp_stop_guard_means : forall sfv t it,
  guard_of KPerpStop sfv t it = true ->
  exists pr slp, i_price it = Some pr /\ fst (fst t) = Some slp /\ (if snd t then pr <= slp else slp <= pr).
Proof.
  intros sfv t it. cbn. destruct (i_price it) as [pr|]; [|discriminate]. unfold perp_stop_hit.
  destruct (fst (fst t)) as [slp|]; [|discriminate]. destruct (snd t); intros H; apply Z.leb_le in H; eauto.
Qed.
Print Assumptions C10_perp_stop_guard_means.

Theorem C10_perp_take_guard_means : forall sfv t it,
  guard_of KPerpTake sfv t it = true ->
  exists pr tpp, i_price it = Some pr /\ snd (fst t) = Some tpp /\ (if snd t then tpp <= pr else pr <= tpp).
Proof.
  intros sfv t it. cbn. destruct (i_price it) as [pr|]; [|discriminate]. unfold perp_take_hit.
  destruct (snd (fst t)) as [tpp|]; [|discriminate]. destruct (snd t); intros H; apply Z.leb_le in H; eauto.
Qed.
Print Assumptions C10_perp_take_guard_means.

(* OPENS. FULL STATEMENT (what the property asks): every successful open / consolidating re-open leaves
   the stored position with health strictly above the safety factor, health being what GetPositionHealth /
   GetMTPHealth returns in the state the transaction leaves behind (op_health).
   The handlers compare the value they computed inside (op_hcheck, also written to the record's health field).
   For leveragelp that IS the final health (checked on every observed open by the harness). For perpetual it is
   computed before the after-open hooks refresh the accounted pool that the swap estimation inside GetMTPHealth
   reads; BEFORE fix: ba85cca that was the only comparison, so an open could pass while the health of the stored
   position was at or below the safety factor: C10_open_healthy_prefix_refuted (numbers observed on the real
   application, signature C10:open-unhealthy:perpetual). Since the fix perpetual Open / OpenConsolidate repeat the
   comparison on the final health (open_step): the full statement is proved for perpetual
   (C10_open_healthy_perpetual) and, for leveragelp, whenever the checked value is the final health
   (C10_open_healthy_partial). *)
Theorem C10_open_check_healthy : forall s o s',
  open_step s o = Ok s' ->
  sf (op_mod o) s < op_hcheck o /\
  (forall h, op_hnew o = Some h -> sf (op_mod o) s < h) /\
  pm (op_mod o) s' (op_owner o) (op_id o) = Some (op_pos o).
Proof. exact open_check_healthy. Qed.
Print Assumptions C10_open_check_healthy.

Theorem C10_open_healthy_perpetual : forall s o s',
  op_mod o = MPerp -> open_step s o = Ok s' -> sf MPerp s < op_health o.
Proof. exact open_healthy_perpetual. Qed.
Print Assumptions C10_open_healthy_perpetual.

Theorem C10_open_healthy_partial : forall s o s',
  op_hcheck o = op_health o -> open_step s o = Ok s' -> sf (op_mod o) s < op_health o.
Proof. intros s o s' E H. rewrite <- E. exact (proj1 (open_check_healthy s o s' H)). Qed.
Print Assumptions C10_open_healthy_partial.

Theorem C10_open_boundary_rejected : forall s o, op_hcheck o <= sf (op_mod o) s -> is_ok (open_step s o) = false.
Proof.
  intros s o H. destruct (open_step s o) as [s'| |] eqn:E; try reflexivity.
  apply open_check_healthy in E. lia.
Qed.
Print Assumptions C10_open_boundary_rejected.

Theorem C10_open_perpetual_final_boundary_rejected : forall s o,
  op_mod o = MPerp -> op_health o <= sf MPerp s -> is_ok (open_step s o) = false.
Proof.
  intros s o Em H. destruct (open_step s o) as [s'| |] eqn:E; try reflexivity.
  apply open_healthy_perpetual in E; [lia|exact Em].
Qed.
Print Assumptions C10_open_perpetual_final_boundary_rejected.

Theorem C10_open_healthy_prefix_refuted :
  exists s o s', open_step_prefix s o = Ok s' /\ op_health o <= sf (op_mod o) s /\
                 pm (op_mod o) s' (op_owner o) (op_id o) = Some (op_pos o) /\
                 perp_may_liquidate (op_health o) (sf (op_mod o) s') = true.
Proof.
  exists refuted_state, refuted_open, (open_store refuted_state refuted_open).
  split; [vm_compute; reflexivity|]. split; [vm_compute; discriminate|]. split; vm_compute; reflexivity.
Qed.
Print Assumptions C10_open_healthy_prefix_refuted.

(* the comparison repeated on the final health for both modules: full statement; it differs from the pre-fix step
   only where the checked value passes and the final health does not *)
Theorem C10_open_healthy_fixed : forall s o s',
  open_step_fixed s o = Ok s' ->
  sf (op_mod o) s < op_health o /\ pm (op_mod o) s' (op_owner o) (op_id o) = Some (op_pos o).
Proof.
  intros s o s' H. apply open_gen_ok in H. destruct H as [B E]. apply andb_true_iff in B.
  split; [apply Z.ltb_lt; exact (proj2 B)|exact E].
Qed.
Print Assumptions C10_open_healthy_fixed.

Theorem C10_open_eq_fixed_off_site : forall s o,
  (open_ok (op_hcheck o) (sf (op_mod o) s) = true -> open_ok (op_health o) (sf (op_mod o) s) = true) ->
  open_step_fixed s o = open_step_prefix s o.
Proof.
  intros s o H. unfold open_step_fixed, open_step_prefix, open_checks_on in *.
  destruct (open_ok (op_hcheck o) (sf (op_mod o) s)); [rewrite (H eq_refl)|]; rewrite ?andb_true_r, ?andb_false_r; reflexivity.
Qed.
Print Assumptions C10_open_eq_fixed_off_site.

(* A user close is keyed by the SENDER: it succeeds only on a position stored under the sender, and
   touches no other position of either module and no other owner's balances; a close naming somebody
   else's position id changes nothing. *)
Theorem C10_owner_keyed : forall s c s',
  owner_close s c = Ok s' ->
  (exists p, pm (oc_mod c) s (oc_sender c) (oc_id c) = Some p) /\
  (forall m o i, (m <> oc_mod c \/ o <> oc_sender c \/ i <> oc_id c) -> pm m s' o i = pm m s o i) /\
  (forall o d, o <> oc_sender c -> st_funds s' o d = st_funds s o d).
Proof.
  intros s c s' H. apply owner_close_ok in H. destruct H as [Hp ->]. split; [exact Hp|]. split.
  - intros m o i. apply pm_store_other.
  - intros o d. apply pay_all_other_owner.
Qed.
Print Assumptions C10_owner_keyed.

Theorem C10_owner_close_foreign_rejected : forall s c,
  pm (oc_mod c) s (oc_sender c) (oc_id c) = None -> run_tx (fun s => owner_close s c) s = s.
Proof. intros s c H. unfold run_tx, owner_close. rewrite H. reflexivity. Qed.
Print Assumptions C10_owner_close_foreign_rejected.

(* Over histories: after ANY history (opens, owner closes, governance changes of either safety factor,
   forced steps, arbitrary other state changes) a forced step changes a position only under its guard,
   and an accepted open passed its health comparison against the safety factor in force. *)
Theorem C10_history_forced_guard : forall s0 h l m o i,
  let s := run s0 h in
  core_at (pm m (run s0 (h ++ [OForced l]))) o i <> core_at (pm m s) o i ->
  exists k it p, In (k, it) l /\ kmod k = m /\ i_owner it = o /\ i_id it = i /\
                 pm m s o i = Some p /\ guard_of k (sf m s) (trig p) it = true.
Proof.
  intros s0 h l m o i s H. unfold run in H. rewrite fold_left_app in H.
  apply forced_change_implies_guard. left. exact H.
Qed.
Print Assumptions C10_history_forced_guard.

Theorem C10_history_open_check_healthy : forall s0 h o,
  let s := run s0 h in
  is_ok (open_step s o) = true ->
  sf (op_mod o) s < op_hcheck o /\
  pm (op_mod o) (run s0 (h ++ [OOpen o])) (op_owner o) (op_id o) = Some (op_pos o).
Proof.
  intros s0 h o s H. unfold run. rewrite fold_left_app. cbn. fold (run s0 h). fold s. unfold run_tx.
  destruct (open_step s o) as [s'| |] eqn:E; try discriminate. apply open_check_healthy in E. tauto.
Qed.
Print Assumptions C10_history_open_check_healthy.

Theorem C10_history_open_healthy_perpetual : forall s0 h o,
  let s := run s0 h in
  op_mod o = MPerp -> is_ok (open_step s o) = true -> sf MPerp s < op_health o.
Proof.
  intros s0 h o s Em H. destruct (open_step s o) as [s'| |] eqn:E; try discriminate.
  exact (open_healthy_perpetual s o s' Em E).
Qed.
Print Assumptions C10_history_open_healthy_perpetual.

(* Non-vacuity: safety factor 1.1; owner 7 has a leveraged-LP position (id 1) with a stop-loss at 0.9 and a
   perpetual long (id 1, stop-loss 4, take-profit 10) and a short (id 2, stop-loss 6.5). A third party sends
   liquidate requests at health exactly 1.1 (allowed), 1.1 + 1 ulp (refused), a stop-loss request at lp price
   exactly 0.9 (allowed on a second position), and perpetual requests around the triggers. *)
Example C10_nonvacuous :
  let u := 1000000000000000000 in
  let s := build (mkSD [(7, 1, P 500 100 400 (Some (9 * u / 10)) None true); (7, 3, P 300 60 240 (Some (9 * u / 10)) None true);
                        (8, 2, P 900 100 800 None None true)]
                       [(7, 1, P 200 50 150 (Some (4 * u)) (Some (10 * u)) true); (7, 2, P 700 70 60 (Some (13 * u / 2)) (Some u) false)]
                       [(7, 0, 1000); (8, 0, 50)] (11 * u / 10) (41 * u / 40)) in
  let s1 := lev_close_positions s true
              [It 8 2 None (Some (11 * u / 10 + 1)) 800 true None None (CloseOk [(0, 77)]);   (* one ulp above: refused *)
               It 7 1 None (Some (11 * u / 10)) 400 true None None (CloseOk [(0, 90)]);       (* exactly sf: liquidated *)
               It 9 9 None (Some 0) 1 true None None (CloseOk [(0, 5)])]                       (* no such position *)
              [It 7 3 None None 0 true (Some (2 * u)) (Some (9 * u / 10)) (CloseOk [(0, 55)]); (* lp price = stop loss *)
               It 8 2 None None 0 true (Some (2 * u)) (Some 1) (CloseOk [(0, 1)])] in          (* nil stop loss *)
  let s2 := perp_close_positions s1 true
              [It 7 1 (Some (-3)) (Some (41 * u / 40 + 1)) 0 true None None (CloseOk [(1, 9)])] (* healthy: only interest *)
              [It 7 2 None None 0 true None (Some (13 * u / 2 - 1)) (CloseOk [(0, 4)])]         (* short, price below sl *)
              [It 7 2 None None 0 true None (Some u) (CloseOk [(0, 33)])] in                     (* short, price = tp *)
  (st_lev s2 8 2 = st_lev s 8 2) /\ st_lev s2 7 1 = None /\ st_lev s2 7 3 = None /\
  option_map core (st_perp s2 7 1) = option_map core (st_perp s 7 1) /\
  option_map p_size (st_perp s2 7 1) = Some 197 /\ st_perp s2 7 2 = None /\
  st_funds s2 7 0 = 1000 + 90 + 55 + 33 /\ st_funds s2 7 1 = 0 /\ st_funds s2 8 0 = 50.
Proof. vm_compute. repeat split. Qed.

(* ---------- the HEALTH values on the underlying quantities (Models/Health.v: leveragelp GetPositionHealth, perpetual
   GetMTPHealth as functions of the observed exit value / debt record / MTP fields / swap estimates; tied to the Go text by
   Props/ArithTieC10b.v and to the keepers' values by the HLev / HPerp cases of every run) ---------- *)

(* leveragelp: health = Quo(exit value, debt). More exit value (pool value of the committed shares) never lowers it, more debt
   (principal, or interest charged: InterestStacked) never raises it. *)
Theorem C10_lev_health_monotone : forall e1 e2 d1 d2,
  0 <= e1 <= e2 -> 0 < d1 <= d2 ->
  lev_health e1 d1 <= lev_health e2 d1 /\ lev_health e1 d2 <= lev_health e1 d1.
Proof. intros e1 e2 d1 d2 He Hd. split; apply lev_health_mono; lia. Qed.
Print Assumptions C10_lev_health_monotone.

Theorem C10_lev_health_falls_with_interest : forall e b s1 s2 p,
  0 <= e -> 0 < total_debt b s1 p -> s1 <= s2 -> lev_health_of e b s2 p <= lev_health_of e b s1 p.
Proof. intros e b s1 s2 p He Hd Hs. unfold lev_health_of, total_debt in *. apply lev_health_mono; lia. Qed.
Print Assumptions C10_lev_health_falls_with_interest.

(* health <= sf / health > sf as cross-multiplied integer statements (PREC = 10^18, sf raw):
     health <= sf  ->  exit * 10^36 < (sf*10^18 + 1/2*10^18 + 1) * debt      (value below debt * (sf + half an ulp + 10^-36))
     exit * 10^18 <= sf * debt  ->  health <= sf ;      health > sf  ->  exit * 10^18 > sf * debt *)
Theorem C10_lev_health_vs_value : forall e d sfv, 0 <= e -> 0 < d ->
  (lev_health e d <= sfv -> e * (PREC * PREC) < (sfv * PREC + HALF + 1) * d) /\
  (e * PREC <= sfv * d -> lev_health e d <= sfv) /\
  (sfv < lev_health e d -> sfv * d < e * PREC).
Proof. intros e d sfv He Hd. rewrite lev_health_pos_debt by lia. apply ratio_vs_sf; assumption. Qed.
Print Assumptions C10_lev_health_vs_value.

(* the liquidation guard of leveragelp (the guard C10_forced_change_implies_guard is about), when the item's health is the
   modelled function of exit value and debt: it holds only if the debt is positive and the exit value is below
   debt * (sf + 0.5*10^-18 + 10^-36); it holds whenever exit value <= debt * sf *)
Theorem C10_lev_liq_guard_means_value_below_debt_times_sf : forall sfv it exit debt,
  0 <= exit -> 0 <= debt -> i_health it = Some (lev_health exit debt) -> i_liab it = debt ->
  lev_liq_guard sfv it = true ->
  0 < debt /\ exit * (PREC * PREC) < (sfv * PREC + HALF + 1) * debt.
Proof.
  intros sfv it exit debt He Hd Hh Hl G. apply lev_liq_guard_spec in G. destruct G as (h & E & L & N).
  rewrite Hh in E. injection E as <-. split; [lia|]. rewrite lev_health_pos_debt in L by lia.
  apply (ratio_vs_sf exit debt sfv); [lia..|exact L].
Qed.
Print Assumptions C10_lev_liq_guard_means_value_below_debt_times_sf.

Theorem C10_lev_value_below_debt_times_sf_means_liq_guard : forall sfv it exit debt,
  0 <= exit -> 0 < debt -> i_health it = Some (lev_health exit debt) -> i_liab it = debt ->
  exit * PREC <= sfv * debt -> lev_liq_guard sfv it = true.
Proof.
  intros sfv it exit debt He Hd Hh Hl H. apply lev_liq_guard_spec. exists (lev_health exit debt).
  repeat split; [exact Hh| |lia]. rewrite lev_health_pos_debt by lia. apply ratio_vs_sf; assumption.
Qed.
Print Assumptions C10_lev_value_below_debt_times_sf_means_liq_guard.

(* an accepted leveragelp open: exit value strictly above debt * sf *)
Theorem C10_lev_open_means_value_above_debt_times_sf : forall e d sfv,
  0 <= e -> 0 < d -> open_ok (lev_health e d) sfv = true -> sfv * d < e * PREC.
Proof.
  intros e d sfv He Hd H. apply Z.ltb_lt in H. rewrite lev_health_pos_debt in H by lia.
  apply (ratio_vs_sf e d sfv); assumption.
Qed.
Print Assumptions C10_lev_open_means_value_above_debt_times_sf.

(* perpetual, regular case (liabilities, custody and the amount owed positive): health = Quo(c, tl) with c the custody value in
   the base currency (LONG: swap estimate of the custody; SHORT: the custody) and tl the amount owed in the base currency
   (LONG: Liabilities + BorrowInterestUnpaidLiability; SHORT: swap estimate of that sum) *)
Theorem C10_perp_health_regular : forall (long : bool) liab unpaid custody el ec c tl,
  liab <> 0 -> 0 < custody -> 0 < tl ->
  (if long then tl = liab + unpaid /\ ec = Some c else el = Some tl /\ c = custody) ->
  perp_health long liab unpaid custody el ec = Ok (ratio c tl).
Proof. exact perp_health_regular. Qed.
Print Assumptions C10_perp_health_regular.

(* LONG: more unpaid interest, same custody value: the health does not rise *)
Theorem C10_perp_health_falls_with_unpaid_interest : forall liab u1 u2 custody el ec c h1 h2,
  0 < liab -> 0 <= u1 <= u2 -> 0 < custody -> 0 <= c -> ec = Some c ->
  perp_health true liab u1 custody el ec = Ok h1 -> perp_health true liab u2 custody el ec = Ok h2 -> h2 <= h1.
Proof.
  intros liab u1 u2 custody el ec c h1 h2 Hl Hu Hc Hc0 He H1 H2.
  apply (perp_health_mono true liab u2 u1 custody custody el el ec ec c c (liab + u2) (liab + u1) h2 h1); auto; lia.
Qed.
Print Assumptions C10_perp_health_falls_with_unpaid_interest.

(* SHORT: more custody (funding received / less interest taken out of it), same amount owed: the health does not fall *)
Theorem C10_perp_health_rises_with_custody : forall liab unpaid c1 c2 el ec tl h1 h2,
  liab <> 0 -> 0 < c1 <= c2 -> 0 < tl -> el = Some tl ->
  perp_health false liab unpaid c1 el ec = Ok h1 -> perp_health false liab unpaid c2 el ec = Ok h2 -> h1 <= h2.
Proof.
  intros liab unpaid c1 c2 el ec tl h1 h2 Hl Hc Ht He H1 H2.
  apply (perp_health_mono false liab unpaid unpaid c1 c2 el el ec ec c1 c2 tl tl h1 h2); auto; lia.
Qed.
Print Assumptions C10_perp_health_rises_with_custody.

(* a position without custody is always liquidatable (health 0), one without liabilities never (health = the maximum) *)
Theorem C10_perp_health_degenerate : forall long liab unpaid custody el ec h,
  (perp_health long 0 unpaid custody el ec = Ok MAXSORT) /\
  (custody <= 0 -> liab <> 0 -> perp_health long liab unpaid custody el ec = Ok h -> h = 0).
Proof.
  intros long liab unpaid custody el ec h. split; [reflexivity|]. intros Hc Hl H.
  unfold perp_health in H. apply Z.eqb_neq in Hl. apply Z.ltb_ge in Hc. rewrite Hl, Hc in H.
  destruct long; cbn in H; [congruence|]. destruct el as [v|]; cbn in H; [|discriminate].
  destruct (v =? 0); congruence.
Qed.
Print Assumptions C10_perp_health_degenerate.

(* the perpetual liquidation guard `health <= sf` and the open check `health > sf` on custody value c and amount owed tl *)
Theorem C10_perp_liq_guard_means_custody_below_owed_times_sf : forall (long : bool) liab unpaid custody el ec c tl h sfv,
  liab <> 0 -> 0 < custody -> 0 < tl -> 0 <= c ->
  (if long then tl = liab + unpaid /\ ec = Some c else el = Some tl /\ c = custody) ->
  perp_health long liab unpaid custody el ec = Ok h ->
  (perp_may_liquidate h sfv = true -> c * (PREC * PREC) < (sfv * PREC + HALF + 1) * tl) /\
  (c * PREC <= sfv * tl -> perp_may_liquidate h sfv = true) /\
  (open_ok h sfv = true -> sfv * tl < c * PREC).
Proof.
  intros long liab unpaid custody el ec c tl h sfv Hl Hc Ht Hc0 H Hh.
  rewrite (perp_health_regular long liab unpaid custody el ec c tl Hl Hc Ht H) in Hh. injection Hh as <-.
  unfold perp_may_liquidate, open_ok. rewrite Z.leb_le, Z.ltb_lt. apply ratio_vs_sf; assumption.
Qed.
Print Assumptions C10_perp_liq_guard_means_custody_below_owed_times_sf.
