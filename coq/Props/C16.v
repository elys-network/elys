(* C16 - The oracle serves the newest live price of the asked asset; only feeders can write.
   Model: Models/Oracle.v (byte-string keys, sorted store, reverse prefix iteration). [lookup true] is the lookup
   of x/oracle/keeper/price.go as it is since fix b6f0d96 (the scan skips iterator entries that decode to another
   asset/source; the harness compares the real keeper with this one, c16Fixed = true); [lookup false] is the lookup
   before that fix, which returns whatever the reverse prefix scan hits first.
   The specification is the map (asset, source) -> fed prices: [spec_run] evolves it along the same
   history (an authorised feed inserts, a block end keeps the live ones, nothing else touches it). *)
From Coq Require Import ZArith NArith List Bool.
From Elys Require Import Base.Res Base.Zdec Models.Oracle Proofs.OracleProofs.
Import ListNotations.
Open Scope N_scope.

(* Every history from an empty price store whose fed (asset, source) pairs all lie in a name set that is
   SEPARATED ([sep]: asset||tier, tier in {elys, band, empty}, is a prefix of asset'||source'||"/"||ts only
   for asset' = asset and, for elys/band, source' = tier):
   - the store holds exactly the prices of the specification map;
   - GetAssetPrice of an asset whose scan prefixes are separated returns the newest price of source elys if
     the map has one, else the newest of band if it has one, else the newest price of one of the asset's
     sources, and nothing iff the map has no price for the asset.
   Stated for [lookup false]: on separated names the scan needs no comparison of the decoded asset/source, and
   the two lookups coincide (OracleProofs.unfixed_eq_fixed). *)
Theorem C16_lookup_refines_spec : forall names ops a s0,
  sep names -> Forall (op_in names) ops -> sep_for names a -> st_prices s0 = [] ->
  let s := fst (spec_run s0 [] ops) in
  let m := snd (spec_run s0 [] ops) in
  s = run s0 ops /\
  (forall v, In v (values (st_prices s)) <-> In v m) /\
  lookup_ok m a (lookup false s a) /\
  ((forall w, In w m -> p_asset w <> a) -> lookup false s a = None).
Proof.
  intros names ops a s0 SP FO SF E0. cbv zeta. pose proof (empty_start names s0 E0) as R0.
  destruct (spec_run_refines names SP ops s0 [] R0 FO) as (E & R'). rewrite E.
  pose proof (lookup_refines names _ _ a R' SF) as L.
  split; [reflexivity|]. split; [apply R'|]. split; [exact L|]. exact (lookup_ok_none _ _ _ L).
Qed.
Print Assumptions C16_lookup_refines_spec.

(* a decidable sufficient condition: the asked name has no "/" and asset||tier is a prefix of no other
   asset'||source' of the name set *)
Theorem C16_separation_decidable : forall names,
  sepb names = true -> sep names /\ forall a, sep_forb names a = true -> sep_for names a.
Proof. intros names H. split; [apply sepb_sound, H | intros a; apply sep_forb_sound]. Qed.
Print Assumptions C16_separation_decidable.

(* Without the side condition the lookup before fix b6f0d96 serves a price fed for ANOTHER asset: one feed of
   (ATMelys, band) by the only feeder; the specification map has no price for ATM, [lookup false] of ATM
   returns the ATMelys price, and a denom whose asset info displays ATM is priced from it. The lookup as it is
   returns nothing. Replayed on the real keeper by harness/c16_test.go c16Corpus()[0]. *)
Theorem C16_prefix_collision_refuted :
  let s := fst (spec_run w_init [] w_ops) in
  let m := snd (spec_run w_init [] w_ops) in
  (forall w, In w m -> p_asset w <> ATM) /\
  (exists v, lookup false s ATM = Some v /\ p_asset v = ATMelys /\ p_asset v <> ATM /\
             price_from_denom false (exec s (OCreateInfo [117; 97; 116; 111; 109] ATM 6)) [117; 97; 116; 111; 109]
             = 7000000000000%Z) /\
  lookup true s ATM = None.
Proof.
  vm_compute. split; [|split].
  - intros w [<-|[]]. discriminate.
  - eexists. split; [reflexivity|]. split; [reflexivity|]. split; [discriminate|reflexivity].
  - reflexivity.
Qed.
Print Assumptions C16_prefix_collision_refuted.

(* The lookup as it is ([lookup true]) meets the specification for ALL names, with respect to what the store holds ... *)
Theorem C16_fixed_lookup_refines_store_all_names : forall s0 ops a,
  st_prices s0 = [] ->
  let s := run s0 ops in
  lookup_ok (values (st_prices s)) a (lookup true s a) /\
  ((forall w, In w (values (st_prices s)) -> p_asset w <> a) -> lookup true s a = None).
Proof.
  intros s0 ops a E0. cbv zeta.
  pose proof (fixed_lookup_ok _ a (run_inv ops s0 (proj1 (empty_start [] s0 E0)))) as L.
  split; [exact L|]. exact (lookup_ok_none _ _ _ L).
Qed.
Print Assumptions C16_fixed_lookup_refines_store_all_names.

(* ... but the store itself loses prices when two pairs concatenate identically: (ATM, elys) and (ATMe, lys)
   fed in the same second share one key. The map has a live (ATM, elys) price; the lookup before the fix returns
   the ATMe price for ATM, the lookup as it is returns nothing. Only a key format with a separator or a
   length prefix repairs this (open finding C16:key-overwrite; c16Corpus()[2] replays it). *)
Theorem C16_key_overwrite_refuted :
  let s := fst (spec_run w_init [] w_ops2) in
  let m := snd (spec_run w_init [] w_ops2) in
  has m ATM ELYS /\
  (exists v, lookup false s ATM = Some v /\ p_asset v = ATMe) /\
  lookup true s ATM = None /\
  ~ lookup_ok m ATM (lookup true s ATM).
Proof.
  assert (H : has (snd (spec_run w_init [] w_ops2)) ATM ELYS).
  { vm_compute. eexists. split; [right; left; reflexivity|]. split; reflexivity. }
  split; [exact H|]. split; [|split].
  - vm_compute. eexists. split; reflexivity.
  - vm_compute. reflexivity.
  - intros (A & _). destruct (A H) as (v & E & _). vm_compute in E. discriminate.
Qed.
Print Assumptions C16_key_overwrite_refuted.

(* Expiry, for all names and both lookups: whatever a lookup returns right after the end of a block was
   stored before and is not expired by that block's end-blocker, in the code's own uint64 arithmetic:
   neither ts + PriceExpiryTime < block time nor height + LifeTimeInBlocks < block height. *)
Theorem C16_expiry : forall fixed s0 ops dt a v,
  st_prices s0 = [] ->
  let s := run s0 ops in
  lookup fixed (exec s (OEndBlock dt)) a = Some v ->
  In v (values (st_prices s)) /\
  add64 (p_ts v) (expiry (st_params s)) <? u64 (st_t s) = false /\
  add64 (p_height v) (life (st_params s)) <? u64 (st_h s) = false.
Proof.
  intros fixed s0 ops dt a v E0. cbv zeta. intros H.
  apply expiry_step in H; [|exact (run_inv ops s0 (proj1 (empty_start [] s0 E0)))]. destruct H as [I L].
  split; [exact I|]. unfold live, expired_time, expired_height in L.
  apply andb_true_iff in L. destruct L as [L1 L2]. apply negb_true_iff in L1, L2. auto.
Qed.
Print Assumptions C16_expiry.

(* A denom without asset info, or whose display asset has no price, is priced zero. *)
Theorem C16_no_info_no_price : forall fixed s d,
  (iget d (st_infos s) = None -> price_from_denom fixed s d = 0%Z) /\
  (forall i, iget d (st_infos s) = Some i -> lookup fixed s (i_display i) = None ->
     price_from_denom fixed s d = 0%Z).
Proof. intros. split; [apply no_info_zero | intros i; apply no_price_zero]. Qed.
Print Assumptions C16_no_info_no_price.

(* Only a registered AND active feeder writes, in every reachable state: (1) a feed of anyone else is an
   error and leaves the state unchanged; (2) the price store changes only at a block end or in a feed of a
   registered active sender; (3) every stored price was stored before or is a price of this very message
   stamped with the current block time and height - so an expired price can only come back by being fed
   again; (4) a block end only removes. *)
Theorem C16_only_active_feeder_writes : forall s0 ops o,
  st_prices s0 = [] ->
  let s := run s0 ops in
  (forall sender, feed_sender o = Some sender -> authorised s sender = false ->
     (exists c, step s o = Err c) /\ exec s o = s) /\
  (st_prices (exec s o) <> st_prices s ->
     is_end_block o = true \/ exists sender, feed_sender o = Some sender /\ authorised s sender = true) /\
  (forall v, In v (values (st_prices (exec s o))) ->
     In v (values (st_prices s)) \/
     exists sender f, authorised s sender = true /\ op_feeds o sender f /\ v = mk_price s sender f) /\
  (is_end_block o = true -> forall v, In v (values (st_prices (exec s o))) -> In v (values (st_prices s))).
Proof.
  intros s0 ops o E0. cbv zeta.
  destruct (exec_values _ o (run_inv ops s0 (proj1 (empty_start [] s0 E0)))) as [_ V].
  split; [intros sender; apply unauthorised_feed_rejected|].
  split; [apply prices_changed_only_by|].
  split; [exact V|].
  intros B v I. destruct (V v I) as [H|(sd & f & _ & F & _)]; [exact H|].
  destruct o; try discriminate B. destruct F.
Qed.
Print Assumptions C16_only_active_feeder_writes.

(* non-vacuity: ordinary tickers x {elys, band, binance, cex} are separated, and on such names already
   [lookup false] serves elys before band before another source, the newest first, and drops what expired *)
Example C16_nonvacuous :
  sepb clean_names = true /\
  let ATOM := [65;84;79;77] in let CEX := [99;101;120] in
  let s := run (mkS [] [(0, true)] [] (mkP 10 1000) 2 1700000000)
     [OFeed 0 (mkF ATOM CEX 5%Z); OEndBlock 5; OFeed 0 (mkF ATOM BAND 6%Z); OFeed 1 (mkF ATOM ELYS 9%Z);
      OEndBlock 5; OFeed 0 (mkF ATOM BAND 7%Z); OEndBlock 1; OEndBlock 5] in
  option_map p_price (lookup false s ATOM) = Some 7%Z /\
  option_map p_price (lookup false (exec s (OEndBlock 5)) ATOM) = Some 7%Z /\
  lookup false (exec (exec s (OEndBlock 5)) (OEndBlock 1)) ATOM = None.
Proof. vm_compute. repeat split. Qed.
