(* C04 - A swap settles exactly as requested within the user's limit, or changes nothing.
   Model in Models/SwapQueue.v.

   [settle] = [settle_gen cur_out_coded] and [msg_req] = [msg_req_gen cur_bydenom_fwd] are the code AS IT IS in the tree: they are
   what the correspondence run evaluates against the real application (Run/SwapQueueRun.v). Since fix: e1a97d2 / f444cb8
   cur_out_coded = false and cur_bydenom_fwd = true.
   [settle_gen true] is RouteExactAmountOut as it was BEFORE fix: e1a97d2 (the output of an intermediate hop paid to the
   recipient); [settle_gen false] = [settle_fixed] pays it to the SENDER (as RouteExactAmountIn does).
   [msg_req_gen false] is SwapByDenom as it was before fix: f444cb8 (Recipient dropped on the exact-out branch),
   [msg_req_gen true] forwards it. The pre-fix variants survive only in the _partial / _refuted statements below.
   nonsys e (route_pools r) a : a is not the pool, rebalance-treasury or revenue address of a pool on the route.
   ind c x = if c then x else 0.  All choices (priced amounts, fees, bonus, failures) are universally quantified. *)
From Coq Require Import ZArith List Bool Arith Lia.
From Elys Require Import Base.Res Base.Fn Models.SwapQueue Proofs.SwapQueueProofs Proofs.SwapBatchProofs Proofs.SwapRevisitProofs.
Import ListNotations.
Open Scope Z_scope.

(* One block, for EVERY list of transactions, EVERY admissible selection function (any order in which the batch may
   pick requests and reverse requests), EVERY resolution of amounts and slippage comparisons:
   - the handlers move no funds (they only enqueue);
   - the batch loop terminates within its fuel (end_block <> None), the queue is empty afterwards and the index is reset;
   - the deletions [tr] thread the bank from its value before the end blocker to its value after (chain), each one
     either is the written cache context of a successful settlement of that request on the bank of that moment, or
     leaves the bank untouched (ev_ok);
   - no request is executed twice (NoDup of the executed indices), every stored request is deleted (exactly the
     stored requests occur in tr), and every deleted request was stored by a transaction of this block. *)
Theorem C04_block_at_most_once_queue_empty : forall e coded sel1 sel2 ch lt b txs,
  (forall q m, sel1 q = Some m -> In m q) -> (forall q, sel1 q = None -> q = []) ->
  (forall q m m2, sel2 q m = Some m2 -> In m2 q) ->
  let s := run_txs e (mkSt b [] 0) txs in
  s_bank s = b /\
  exists s' tr, end_block e coded sel1 sel2 ch lt s = Some (s', tr) /\
    s_q s' = [] /\ s_last s' = 0%nat /\
    chain b tr (s_bank s') /\ Forall (ev_ok coded e) tr /\ NoDup (applied_idx tr) /\
    (forall m, In m (s_q s) <-> In m (map ev_req tr)) /\
    (forall v, In v tr -> exists mc, In mc txs /\ ev_req v = msg_req (fst mc)).
Proof.
  intros e coded sel1 sel2 ch lt b txs H1 H2 H3 s.
  destruct (run_txs_inv e b txs) as (B & Q & M). fold s in B, Q, M. split; [exact B|].
  assert (ND : NoDup (map r_idx (s_q s))) by (rewrite Q; apply seq_NoDup).
  destruct (end_block_spec e coded sel1 sel2 ch lt H1 H2 H3 s ND) as (b' & tr & E & C & F & NDa & Mem).
  exists (mkSt b' [] 0), tr. rewrite B in C. repeat split; try assumption; try apply Mem.
  intros v Hv. apply M, Mem, in_map, Hv.
Qed.
Print Assumptions C04_block_at_most_once_queue_empty.

(* the selection as coded (first key of the exact-in store, else of the exact-out store; reversed prefix) is admissible *)
Theorem C04_block_coded_selection : forall e coded ch lt b txs,
  let s := run_txs e (mkSt b [] 0) txs in
  s_bank s = b /\
  exists s' tr, end_block e coded sel1c sel2c ch lt s = Some (s', tr) /\
    s_q s' = [] /\ s_last s' = 0%nat /\
    chain b tr (s_bank s') /\ Forall (ev_ok coded e) tr /\ NoDup (applied_idx tr) /\
    (forall m, In m (s_q s) <-> In m (map ev_req tr)) /\
    (forall v, In v tr -> exists mc, In mc txs /\ ev_req v = msg_req (fst mc)).
Proof.
  intros. apply C04_block_at_most_once_queue_empty; [apply sel_first_in|apply sel1c_none|intros q m; apply sel_first_in].
Qed.
Print Assumptions C04_block_coded_selection.

(* the fuel 2*|queue|+1 of the loop is never exhausted *)
Theorem C04_loop_terminates : forall e coded sel1 sel2 ch lt,
  (forall q m, sel1 q = Some m -> In m q) -> (forall q m m2, sel2 q m = Some m2 -> In m2 q) ->
  forall q b, exec_requests e coded sel1 sel2 ch lt q b <> None.
Proof. intros e coded sel1 sel2 ch lt H1 H2. exact (exec_total e coded sel1 sel2 ch lt H1 H2). Qed.
Print Assumptions C04_loop_terminates.

(* A deleted request whose cache context was not written changed nobody's balance. *)
Theorem C04_failed_request_no_effect : forall coded e v,
  ev_ok coded e v -> ev_applied v = false -> forall a d, ev_after v a d = ev_before v a d.
Proof. unfold ev_ok. intros coded e v H E. rewrite E in H. rewrite H. reflexivity. Qed.
Print Assumptions C04_failed_request_no_effect.

(* Exact-in, any route (multi-hop, cyclic), any recipient: the final output is >= TokenOutMinAmount and positive; the
   sender held the input; and for EVERY address that is not a pool-owned address of the route and every denom:
   balance after = before - TokenIn (sender, input denom) + final output (recipient, output denom) + bonus, where bonus
   is >= 0, is paid by a rebalance treasury, goes only to sender/recipient and is 0 when no pool pays a weight bonus. *)
Theorem C04_exact_in_debit_credit : forall coded e b r c b',
  r_kind r = KIn -> settle_gen coded e b r c = Ok b' ->
  r_limit r <= in_out_amt r c /\ 0 < in_out_amt r c /\ 0 < r_amt r /\ r_amt r <= b (r_sender r) (r_denom r) /\
  (forall a, nonsys e (route_pools r) a -> forall d,
     b' a d = b a d - ind (Nat.eqb a (r_sender r) && Nat.eqb d (r_denom r)) (r_amt r)
                    + ind (Nat.eqb a (r_rcpt r) && Nat.eqb d (in_out_denom r c)) (in_out_amt r c)
                    + req_bonus r c a d) /\
  (forall a d, 0 <= req_bonus r c a d) /\
  (forall a d, a <> r_sender r -> a <> r_rcpt r -> req_bonus r c a d = 0) /\
  (Forall (fun h => h_bonus h <= 0) (c_hops c) -> forall a d, req_bonus r c a d = 0).
Proof.
  intros coded e b r c b' K H. destruct (settle_gen_inv _ _ _ _ _ _ H) as (NE & L). rewrite K in L.
  apply in_loop_spec in L; [|exact NE]. unfold in_out_amt, in_out_denom, req_bonus.
  destruct (last_out _ _ _ _) as [dl al]. destruct L as (G1 & G2 & G3 & G4 & G). repeat (split; [assumption|]).
  split; [intros; apply in_bonus_nonneg|]. split; [|intros; apply in_bonus_none; assumption].
  intros a d Hs Hr. apply (in_bonus_other _ _ _ Hs _ _ (r_denom r) (r_amt r)). left. exact Hr.
Qed.
Print Assumptions C04_exact_in_debit_credit.

(* Exact-in, EVERY hop list - no premise that the pools of the route are distinct: a route may use one pool on several
   hops (there and back, A-B-A, the last pool on an earlier hop too). By induction over the hops:
   - the sender's stated input denom moves by exactly -TokenIn (+ the final output when it is its own recipient and the
     route is cyclic, + weight bonuses); no other denom of the sender ever decreases, and it changes by weight bonuses only;
   - a recipient other than the sender is touched in the denom leaving the LAST hop only (bonuses included), by at least
     the minimum: the output of every earlier hop, whatever pool it uses, goes to the sender and is the next hop's input;
   - when no pool of the route pays a weight bonus, every denom other than the paid and the received one - every denom the
     route only passes through - is exactly unchanged for sender and recipient. *)
Theorem C04_exact_in_intermediate_denoms_untouched : forall coded e b r c b',
  r_kind r = KIn -> settle_gen coded e b r c = Ok b' ->
  (nonsys e (route_pools r) (r_sender r) ->
     b' (r_sender r) (r_denom r) =
       b (r_sender r) (r_denom r) - r_amt r
       + ind (Nat.eqb (r_sender r) (r_rcpt r) && Nat.eqb (r_denom r) (in_out_denom r c)) (in_out_amt r c)
       + req_bonus r c (r_sender r) (r_denom r) /\
     (forall d, d <> r_denom r -> (r_sender r <> r_rcpt r \/ d <> in_out_denom r c) ->
        b' (r_sender r) d = b (r_sender r) d + req_bonus r c (r_sender r) d) /\
     (forall d, d <> r_denom r -> b (r_sender r) d <= b' (r_sender r) d)) /\
  (r_rcpt r <> r_sender r -> nonsys e (route_pools r) (r_rcpt r) ->
     (forall d, d <> in_out_denom r c -> b' (r_rcpt r) d = b (r_rcpt r) d) /\
     b (r_rcpt r) (in_out_denom r c) + in_out_amt r c <= b' (r_rcpt r) (in_out_denom r c) /\
     r_limit r <= in_out_amt r c) /\
  (Forall (fun h => h_bonus h <= 0) (c_hops c) ->
     forall a, a = r_sender r \/ a = r_rcpt r -> nonsys e (route_pools r) a ->
     forall d, d <> r_denom r -> d <> in_out_denom r c -> b' a d = b a d).
Proof.
  intros coded e b r c b' K H.
  destruct (C04_exact_in_debit_credit coded e b r c b' K H) as (G1 & G2 & _ & _ & EQ & BN & _ & B0).
  split; [|split].
  - intros NS. split; [|split].
    + rewrite (EQ _ NS), ind_same. reflexivity.
    + intros d Hd Hor. rewrite (EQ _ NS d), !ind_other by auto. lia.
    + intros d Hd. rewrite (EQ _ NS d), ind_other by auto. pose proof (BN (r_sender r) d).
      unfold ind. destruct (_ && _); lia.
  - intros Hn NS. split; [|split; [|exact G1]].
    + intros d Hd. rewrite (EQ _ NS d), !ind_other by auto. unfold req_bonus.
      rewrite (in_bonus_other _ _ _ Hn _ _ _ _ _ (or_intror Hd)). lia.
    + rewrite (EQ _ NS), ind_same, ind_other by auto. pose proof (BN (r_rcpt r) (in_out_denom r c)). lia.
  - intros F a Ha NS d Hd1 Hd2. rewrite (EQ _ NS d), (B0 F), !ind_other by auto. lia.
Qed.
Print Assumptions C04_exact_in_intermediate_denoms_untouched.

(* "Last hop" means last POSITION. Route pool 1 (denom 0 -> 1), pool 1 (denom 1 -> 0), sender 1, recipient 2, minimum 1:
   the coded hop loop takes 1000 of denom 0 from the sender, pays 990 of denom 0 to the recipient and leaves denom 1 of
   both untouched; the same loop with the last hop recognised by its pool id ([in_loop_by_pool], not the code) hands the
   first hop's 199 of denom 1 to the recipient and takes the second hop's input from the sender's own holdings. *)
Theorem C04_last_hop_is_by_position_witness :
  (exists b', settle wit_env rv_bank rv_req rv_choice = Ok b' /\
     b' 1%nat 0%nat = rv_bank 1%nat 0%nat - 1000 /\ b' 1%nat 1%nat = rv_bank 1%nat 1%nat /\
     b' 2%nat 0%nat = rv_bank 2%nat 0%nat + 990 /\ b' 2%nat 1%nat = rv_bank 2%nat 1%nat) /\
  (exists b', in_loop_by_pool 1 wit_env 1 2 (r_hops rv_req) (c_hops rv_choice) 1 0 1000 rv_bank = Ok b' /\
     b' 1%nat 1%nat = rv_bank 1%nat 1%nat - 199 /\ b' 2%nat 1%nat = rv_bank 2%nat 1%nat + 199).
Proof.
  split; eexists; (split; [vm_compute; reflexivity|]); repeat split; vm_compute; reflexivity.
Qed.
Print Assumptions C04_last_hop_is_by_position_witness.

(* Exact-out, code as it is AND repaired, any route: a recipient other than the sender gains at least TokenOut in the
   output denom and loses nothing in any denom; nobody else (outside the pools' own addresses) is touched. *)
Theorem C04_exact_out_credit : forall coded e b r c b',
  r_kind r = KOut -> settle_gen coded e b r c = Ok b' ->
  (r_rcpt r <> r_sender r -> nonsys e (route_pools r) (r_rcpt r) ->
     forall d, b (r_rcpt r) d + ind (Nat.eqb d (r_denom r)) (r_amt r) <= b' (r_rcpt r) d) /\
  (forall a, a <> r_sender r -> a <> r_rcpt r -> nonsys e (route_pools r) a -> forall d, b' a d = b a d).
Proof.
  intros coded e b r c b' K H. destruct (settle_gen_inv _ _ _ _ _ _ H) as (NE & L). rewrite K in L.
  split; [|intros a Hs Hr NS; exact (out_loop_third _ _ _ _ _ _ _ Hs Hr _ _ _ _ _ _ NS L)].
  intros Hn NS d. pose proof (out_loop_bound _ _ _ _ _ _ _ _ _ _ _ _ _ NE NS L (or_intror (fun E => False_ind _ (Hn E))) d) as G.
  rewrite ind_other, Nat.eqb_refl in G by auto. cbn [andb] in G. lia.
Qed.
Print Assumptions C04_exact_out_credit.

(* Exact-out, THE CODE AS IT IS ([settle], the function the correspondence run evaluates), every route, every recipient:
   the sender loses at most TokenInMaxAmount of the stated input denom, nothing of any other denom, and (when it is the
   recipient) gains at least TokenOut. Full statement, no side condition. *)
Theorem C04_exact_out_debit : forall e b r c b',
  r_kind r = KOut -> settle e b r c = Ok b' -> nonsys e (route_pools r) (r_sender r) ->
  out_sender_bound b b' r.
Proof. intros e b r c b' K H NS. apply (exact_out_sender false e b r c b' K H NS). auto. Qed.
Print Assumptions C04_exact_out_debit.

(* SwapByDenom AS IT IS stores exactly the request the message states (Recipient included), on both branches. *)
Theorem C04_by_denom_recipient : forall r, msg_req (MByDenom r) = r.
Proof. intros r. cbn. destruct (r_kind r); reflexivity. Qed.
Print Assumptions C04_by_denom_recipient.

(* Exact-out, code as it was before fix: e1a97d2: the sender's bound holds only PROVIDED the route has one hop or the
   sender is the recipient.
   Full statement (holds for [settle_fixed] = [settle], refuted for [settle_gen true], see below):
     forall e b r c b', r_kind r = KOut -> settle_gen true e b r c = Ok b' ->
       nonsys e (route_pools r) (r_sender r) -> out_sender_bound b b' r. *)
Theorem C04_exact_out_debit_partial : forall e b r c b',
  r_kind r = KOut -> settle_gen true e b r c = Ok b' -> nonsys e (route_pools r) (r_sender r) ->
  (length (r_hops r) = 1%nat \/ r_sender r = r_rcpt r) ->
  out_sender_bound b b' r.
Proof. intros e b r c b' K H NS Pol. apply (exact_out_sender true e b r c b' K H NS). tauto. Qed.
Print Assumptions C04_exact_out_debit_partial.

(* With intermediate outputs routed to the sender the bound holds for every route and every recipient. *)
Theorem C04_exact_out_debit_fixed : forall e b r c b',
  r_kind r = KOut -> settle_fixed e b r c = Ok b' -> nonsys e (route_pools r) (r_sender r) ->
  out_sender_bound b b' r.
Proof. exact C04_exact_out_debit. Qed.
Print Assumptions C04_exact_out_debit_fixed.

(* Code as it was before fix: e1a97d2, two hops, recipient <> sender (numbers of the real application, harness corpus entry 0):
   the sender pays the first hop's input (within its maximum) AND the second hop's input in the intermediate denom
   from its own wallet; the recipient keeps the first hop's output as well as the final output. *)
Theorem C04_exact_out_multihop_third_party_refuted :
  exists b', settle_gen true wit_env wit_bank wit_req wit_choice = Ok b' /\
    r_sender wit_req <> r_rcpt wit_req /\ nonsys wit_env (route_pools wit_req) (r_sender wit_req) /\
    out_in_denom wit_req = 0%nat /\
    b' 1%nat 0%nat = wit_bank 1%nat 0%nat - 1806607 /\
    b' 1%nat 1%nat = wit_bank 1%nat 1%nat - 9013258 /\
    b' 2%nat 1%nat = wit_bank 2%nat 1%nat + 9017320 /\
    b' 2%nat 2%nat = wit_bank 2%nat 2%nat + 1000000 /\
    ~ out_sender_bound wit_bank b' wit_req.
Proof.
  eexists. split; [vm_compute; reflexivity|]. split; [cbn; discriminate|]. split.
  { intros p [<-|[<-|[]]]; repeat split; discriminate. }
  repeat (split; [vm_compute; reflexivity|]). intros B. specialize (B 1%nat). vm_compute in B. apply B. reflexivity.
Qed.
Print Assumptions C04_exact_out_multihop_third_party_refuted.

(* Before fix: f444cb8 MsgSwapByDenom resolved to an exact-out request whose recipient is the SENDER, whatever Recipient the message
   names (the exact-in branch forwards it). *)
Theorem C04_by_denom_exact_out_recipient_refuted :
  exists r, r_kind r = KOut /\ r_rcpt r <> r_sender r /\ r_rcpt (msg_req_gen false (MByDenom r)) = r_sender r /\
            r_rcpt (msg_req_gen false (MOut r)) = r_rcpt r.
Proof. exists wit_req. cbn. repeat split; discriminate. Qed.
Print Assumptions C04_by_denom_exact_out_recipient_refuted.

(* With Recipient forwarded the stored request is the one the message states. *)
Theorem C04_by_denom_recipient_fixed : forall r, msg_req_gen true (MByDenom r) = r.
Proof. exact C04_by_denom_recipient. Qed.
Print Assumptions C04_by_denom_recipient_fixed.

(* since fix: a75f29f the handlers refuse a recipient on bank's blocked-address list: nothing is stored *)
Theorem C04_blocked_recipient_refused : forall e s m c,
  e_blocked e (r_rcpt (msg_req m)) = true -> enqueue e s m c = Err 12.
Proof. intros e s m c H. unfold enqueue. rewrite H. reflexivity. Qed.
Print Assumptions C04_blocked_recipient_refused.

(* Non-vacuity: a block with an exact-in and an opposite exact-out request on one pool, coded selection: the
   exact-in request executes (sender -1000 of denom 0, +1990 of denom 1 incl. a bonus of 0), the opposite one is
   dropped because its maximum is exceeded, the queue ends empty. *)
Example C04_nonvacuous :
  let e := wit_env in
  let b : bank := fun a d => if Nat.eqb a 1 then 5000 else if Nat.eqb a 101 then 1000000 else 0 in
  let r1 := mkReq 1 KIn 1 1 [(1, 1)]%nat 0 1000 1990 [0; 1; 1; 1]%nat [1; 1; 0]%nat in
  let r2 := mkReq 2 KOut 1 1 [(1, 1)]%nat 0 500 10 [1; 1; 0; 2]%nat [0; 1; 1]%nat in
  let c1 := mkCh false [] [mkHop false 1990 [(RPool, RTreas, 0%nat, 3)] 0 false] in
  let c2 := mkCh false [0] [mkHop false 251 [] 0 false] in
  let s := run_txs e (mkSt b [] 0) [(MIn r1, c1); (MOut r2, mkCh false [0] [mkHop false 10 [] 0 false])] in
  match end_block e cur_out_coded sel1c sel2c (fun _ second _ => if second then c2 else c1) (fun _ => true) s with
  | Some (s', tr) => s_q s' = [] /\ map (fun v => (r_idx (ev_req v), ev_applied v)) tr = [(2%nat, false); (1%nat, true)] /\
                     s_bank s' 1%nat 0%nat = 4000 /\ s_bank s' 1%nat 1%nat = 6990 /\ s_bank s' 201%nat 0%nat = 3
  | None => False
  end.
Proof. vm_compute. repeat split. Qed.
