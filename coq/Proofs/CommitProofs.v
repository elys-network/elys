(* Proofs about Models/Commit.v (the commitment ledger): what AddCommittedTokens / DeductFromCommitted do to a
   token list, what every handler does to the ledger invariant and to the per-denom committed sums, and the
   invariant over fold_left histories.  The property theorems are assembled in Props/C12.v. *)
From Coq Require Import ZArith List Bool Lia.
From Elys Require Import Base.Res Base.ResFacts Base.ListFacts Models.Commit.
Import ListNotations.
Open Scope Z_scope.

Lemma locked_sum_filter_le p ls :
  Forall (fun k => 0 <= l_amt k) ls -> locked_sum (filter p ls) <= locked_sum ls.
Proof. unfold locked_sum. induction 1 as [|k ls Hk _ IH]; cbn; [lia|]. destruct (p k); cbn; lia. Qed.

Lemma locked_sum_app a b : locked_sum (a ++ b) = locked_sum a + locked_sum b.
Proof. unfold locked_sum. rewrite map_app. apply zsum_app. Qed.

Lemma filter_liq now ls : filter (keep_lock now true) ls = [].
Proof. induction ls as [|k ls IH]; cbn; [reflexivity|]. unfold keep_lock at 1. rewrite andb_false_r. exact IH. Qed.

Definition wf_tok (t : ctok) : Prop :=
  0 <= t_amt t /\ Forall (fun k => 0 <= l_amt k) (t_locks t) /\ locked_sum (t_locks t) <= t_amt t.

Definition wf_toks (l : list ctok) : Prop := Forall wf_tok l /\ NoDup (map t_denom l).

Lemma csum_nil d : csum d [] = 0. Proof. reflexivity. Qed.

Lemma csum_cons d t r : csum d (t :: r) = (if t_denom t =? d then t_amt t else 0) + csum d r.
Proof. unfold csum. cbn. destruct (t_denom t =? d); reflexivity. Qed.

Lemma csum_app d a b : csum d (a ++ b) = csum d a + csum d b.
Proof. unfold csum. rewrite filter_app, map_app. apply zsum_app. Qed.

Lemma csum_notin d l : ~ In d (map t_denom l) -> csum d l = 0.
Proof.
  induction l as [|t r IH]; intros H; [reflexivity|]. cbn in H. rewrite csum_cons, IH by tauto.
  destruct (Z.eqb_spec (t_denom t) d); tauto.
Qed.

Lemma csum_camt d l : NoDup (map t_denom l) -> csum d l = camt d l.
Proof.
  induction l as [|t r IH]; intros H; [reflexivity|].
  inversion H as [|? ? Hnin Hnr]; subst. rewrite csum_cons. cbn.
  destruct (Z.eqb_spec (t_denom t) d) as [<-|]; [rewrite csum_notin by exact Hnin; lia|auto].
Qed.

Lemma csum_nonneg d l : Forall wf_tok l -> 0 <= csum d l.
Proof.
  induction 1 as [|t r (A & _) _ IH]; [rewrite csum_nil; lia|].
  rewrite csum_cons. destruct (t_denom t =? d); lia.
Qed.

Lemma camt_nonneg d l : wf_toks l -> 0 <= camt d l.
Proof. intros [Hf Hn]. rewrite <- csum_camt by exact Hn. apply csum_nonneg, Hf. Qed.

Lemma add_committed_eq d x u l :
  (~ In d (map t_denom l) /\ add_committed d x u l = l ++ [mkT d x (if u =? 0 then [] else [mkLk x u])]) \/
  exists pre t post, l = pre ++ t :: post /\ t_denom t = d /\
    add_committed d x u l
    = pre ++ mkT d (t_amt t + x) (if u =? 0 then t_locks t else t_locks t ++ [mkLk x u]) :: post.
Proof.
  induction l as [|t r IH]; cbn [add_committed map In]; [left; auto|]. destruct (Z.eqb_spec (t_denom t) d) as [<-|E].
  - right. exists [], t, r. auto.
  - destruct IH as [[N ->]|(pre & t0 & post & -> & E0 & ->)].
    + left. split; [tauto|reflexivity].
    + right. exists (t :: pre), t0, post. auto.
Qed.

Lemma wf_tok_add d a ls x u : 0 <= x -> wf_tok (mkT d a ls) ->
  wf_tok (mkT d (a + x) (if u =? 0 then ls else ls ++ [mkLk x u])).
Proof.
  unfold wf_tok. cbn [t_amt t_locks]. intros Hx (A & B & C). destruct (u =? 0); [repeat split; auto; lia|].
  rewrite locked_sum_app. repeat split; [lia|apply Forall_app; auto|cbn; lia].
Qed.

Lemma csum_add d' d x u l :
  csum d' (add_committed d x u l) = csum d' l + (if d' =? d then x else 0).
Proof.
  rewrite (Z.eqb_sym d').
  destruct (add_committed_eq d x u l) as [[_ ->]|(pre & t & post & -> & <- & ->)];
    rewrite !csum_app, !csum_cons; cbn [t_denom t_amt]; [rewrite csum_nil|]; destruct (_ =? d'); lia.
Qed.

Lemma wf_add d x u l : 0 <= x -> wf_toks l -> wf_toks (add_committed d x u l).
Proof.
  intros Hx [Hf Hn].
  destruct (add_committed_eq d x u l) as [[N ->]|(pre & t & post & -> & <- & ->)]; split.
  - apply Forall_app. split; [exact Hf|]. constructor; [|constructor].
    apply (wf_tok_add d 0 [] x u Hx). repeat split; cbn; auto; lia.
  - rewrite map_app. apply (NoDup_Add (Add_app d _ [])). rewrite app_nil_r. auto.
  - apply Forall_app in Hf as [Hp Ht]. inversion Ht as [|? ? Hw Hpost]; subst.
    apply Forall_app. split; [exact Hp|]. constructor; [|exact Hpost].
    apply wf_tok_add; [exact Hx|exact Hw].
  - rewrite map_app in *. exact Hn.
Qed.

(* DeductFromCommitted, read off its success: the first entry [t] of the denom covers the amount and what is
   still locked, and is replaced by the remainder with the surviving lock-ups, or removed at zero *)
Lemma deduct_ok d x now liq l l' :
  deduct_committed d x now liq l = Ok l' ->
  exists pre t post, l = pre ++ t :: post /\ t_denom t = d /\ camt d l = t_amt t /\ clocks d l = t_locks t /\
    let a' := t_amt t - x in let nl := filter (keep_lock now liq) (t_locks t) in
    0 <= a' /\ locked_sum nl <= a' /\ l' = pre ++ (if a' =? 0 then [] else [mkT d a' nl]) ++ post.
Proof.
  revert l'; induction l as [|t r IH]; intros l' H; cbn in H; [discriminate|]. cbn [camt clocks].
  destruct (Z.eqb_spec (t_denom t) d) as [<-|E].
  - destruct (Z.ltb_spec (t_amt t - x) 0); [discriminate|].
    destruct (Z.ltb_spec (t_amt t - x) (locked_sum (filter (keep_lock now liq) (t_locks t)))); [discriminate|].
    exists [], t, r. cbn. destruct (t_amt t - x =? 0); injection H as <-; repeat split; auto.
  - apply bind_ok in H as (r' & H & [= <-]).
    destruct (IH _ H) as (pre & t0 & post & -> & E0 & Ec & El & A & B & ->).
    exists (t :: pre), t0, post. cbn. repeat split; auto.
Qed.

Lemma csum_deduct d' d x now liq l l' :
  deduct_committed d x now liq l = Ok l' ->
  csum d' l' = csum d' l - (if d' =? d then x else 0).
Proof.
  intros H. destruct (deduct_ok _ _ _ _ _ _ H) as (pre & t & post & -> & <- & _ & _ & _ & _ & ->).
  rewrite (Z.eqb_sym d'), !csum_app, csum_cons.
  destruct (Z.eqb_spec (t_amt t - x) 0); [|rewrite csum_cons; cbn [t_denom t_amt]];
    rewrite csum_nil; destruct (t_denom t =? d'); lia.
Qed.

Lemma wf_deduct d x now liq l l' :
  deduct_committed d x now liq l = Ok l' -> wf_toks l -> wf_toks l'.
Proof.
  intros H [Hf Hn]. destruct (deduct_ok _ _ _ _ _ _ H) as (pre & t & post & -> & <- & _ & _ & A & B & ->).
  apply Forall_app in Hf as [Hp Ht]. inversion Ht as [|? ? (_ & Hk & _) Hpost]; subst.
  rewrite map_app in Hn. destruct (_ =? 0); split; try (apply Forall_app; split; [exact Hp|]).
  - exact Hpost.
  - rewrite map_app. exact (NoDup_remove_1 _ _ _ Hn).
  - constructor; [|exact Hpost]. repeat split; [exact A| |exact B].
    exact (incl_Forall (incl_filter _ _) Hk).
  - rewrite map_app. exact Hn.
Qed.

Lemma deduct_guard d x now liq l l' :
  deduct_committed d x now liq l = Ok l' ->
  0 <= camt d l - x /\ locked_sum (filter (keep_lock now liq) (clocks d l)) <= camt d l - x.
Proof.
  intros H. destruct (deduct_ok _ _ _ _ _ _ H) as (_ & t & _ & _ & _ & -> & -> & A & B & _). exact (conj A B).
Qed.

Lemma camt_deduct d x now liq l l' :
  wf_toks l -> deduct_committed d x now liq l = Ok l' -> camt d l' = camt d l - x.
Proof.
  intros W H. rewrite <- !csum_camt by apply W || apply (wf_deduct _ _ _ _ _ _ H W).
  rewrite (csum_deduct d _ _ _ _ _ _ H), Z.eqb_refl. reflexivity.
Qed.

Lemma deduct_overdraw d x now liq l : camt d l < x -> deduct_committed d x now liq l = Err E_insufficient_committed.
Proof.
  induction l as [|t r IH]; intros H; cbn in *; [reflexivity|].
  destruct (t_denom t =? d); [|rewrite IH; auto].
  destruct (Z.ltb_spec (t_amt t - x) 0); [reflexivity|lia].
Qed.

(* a liquidation is never stopped by a lock *)
Lemma deduct_liq_ok d x now l :
  In d (map t_denom l) -> x <= camt d l -> exists l', deduct_committed d x now true l = Ok l'.
Proof.
  induction l as [|t r IH]; intros Hin Hx; cbn in *; [tauto|].
  destruct (Z.eqb_spec (t_denom t) d) as [_|E].
  - rewrite filter_liq. change (locked_sum []) with 0.
    destruct (Z.ltb_spec (t_amt t - x) 0); [lia|]. destruct (t_amt t - x =? 0); eauto.
  - destruct Hin as [Hin|Hin]; [contradiction|]. destruct (IH Hin Hx) as (r' & ->). cbn. eauto.
Qed.

Definition wf_acct (A : acct) : Prop :=
  wf_toks (a_com A) /\ (forall d, 0 <= a_claimed A d) /\ (forall d, 0 <= a_wallet A d).

Definition Inv (s : ledger) : Prop :=
  Forall wf_acct (s_accts s) /\
  forall d, is_virtual d = false -> sum_committed d s + sum_claimed d s <= s_mod s d.

Lemma wf_dflt : wf_acct dflt_acct.
Proof. repeat split; cbn; try constructor; unfold zero; lia. Qed.

Lemma inv_get s a : Inv s -> wf_acct (get_acct s a).
Proof. intros [H _]. unfold get_acct. apply Forall_nth_dflt; [exact H|exact wf_dflt]. Qed.

Lemma fadd_eq f d x d' : fadd f d x d' = f d' + (if d' =? d then x else 0).
Proof. unfold fadd, fupd. destruct (Z.eqb_spec d' d) as [->|]; lia. Qed.

Lemma fadd_nonneg f d x :
  (forall d', 0 <= f d') -> (0 <= f d -> 0 <= f d + x) -> forall d', 0 <= fadd f d x d'.
Proof. intros Hf Hx d'. unfold fadd, fupd. destruct (d' =? d); auto. Qed.

Lemma has_acct_lt s a : has_acct s a = true -> (a < length (s_accts s))%nat.
Proof. apply Nat.ltb_lt. Qed.

Lemma has_acct_upd s a b A' m p :
  has_acct (mkLed (upd_nth b A' (s_accts s)) m p) a = has_acct s a.
Proof. unfold has_acct. cbn. rewrite length_upd_nth. reflexivity. Qed.

Lemma get_acct_upd_same s a A' m p :
  has_acct s a = true -> get_acct (mkLed (upd_nth a A' (s_accts s)) m p) a = A'.
Proof. intros H. apply nth_upd_nth_same, has_acct_lt, H. Qed.

Lemma get_acct_upd_other s a b A' m p :
  a <> b -> get_acct (mkLed (upd_nth a A' (s_accts s)) m p) b = get_acct s b.
Proof. apply nth_upd_nth_other. Qed.

(* the custody invariant covers each single account's committed amount: its share is at most the sum over
   the accounts, and the claimed amounts of the others are not negative *)
Lemma inv_mod_covers s a d :
  Inv s -> has_acct s a = true -> is_virtual d = false -> camt d (a_com (get_acct s a)) <= s_mod s d.
Proof.
  intros HI Ha V. destruct (inv_get s a HI) as ([_ Wn] & _). destruct HI as [Hf Hc]. specialize (Hc d V).
  rewrite <- csum_camt by exact Wn.
  assert (C1 : csum d (a_com (get_acct s a)) <= sum_committed d s).
  { apply (zsum_map_ge_nth (fun A => csum d (a_com A))); [|exact (has_acct_lt _ _ Ha)].
    apply (Forall_impl _ (fun A W => csum_nonneg d _ (proj1 (proj1 W))) Hf). }
  assert (C2 : 0 <= sum_claimed d s).
  { apply zsum_map_nonneg. apply (Forall_impl _ (fun A W => proj1 (proj2 W) d) Hf). }
  lia.
Qed.

(* effect of an emitted update on Params.TotalCommitted; with both switches on it is the effect of the
   handler on the sum of committed amounts *)
Definition dtot (fu fb : bool) (d : Z) (u : tup) : Z :=
  match u with
  | TCommit d' x => if d =? d' then x else 0
  | TUncommit d' x => if d =? d' then (if fu then - x else x) else 0
  | TBurn d' x => if fb then (if d =? d' then - x else 0) else 0
  end.
Definition up_ok (u : tup) : Prop :=
  match u with TCommit _ _ => True | TUncommit _ x => 0 <= x | TBurn _ x => 0 <= x end.

Definition post (s s' : ledger) (ups : list tup) : Prop :=
  Inv s' /\ Forall up_ok ups /\
  forall d, sum_committed d s' = sum_committed d s + zsum (map (dtot true true d) ups).

Lemma post_refl s : Inv s -> post s s [].
Proof. intros H. repeat split; try apply H; auto. intros d. cbn. lia. Qed.

Lemma post_trans s1 s2 s3 u1 u2 : post s1 s2 u1 -> post s2 s3 u2 -> post s1 s3 (u1 ++ u2).
Proof.
  intros (I1 & F1 & E1) (I2 & F2 & E2). repeat split; try apply I2.
  - apply Forall_app; auto.
  - intros d. rewrite E2, E1, map_app, zsum_app. lia.
Qed.

Lemma post_upd s a com' cl' w' m p ups :
  Inv s -> has_acct s a = true ->
  wf_toks com' -> (forall d, 0 <= cl' d) -> (forall d, 0 <= w' d) ->
  (forall d, is_virtual d = false ->
     (csum d com' + cl' d) - (csum d (a_com (get_acct s a)) + a_claimed (get_acct s a) d) <= m d - s_mod s d) ->
  Forall up_ok ups ->
  (forall d, csum d com' - csum d (a_com (get_acct s a)) = zsum (map (dtot true true d) ups)) ->
  post s (mkLed (upd_nth a (mkA com' cl' w') (s_accts s)) m p) ups.
Proof.
  intros [Hf Hc] Ha Hw Hl Hww Hd Hu Hs. apply has_acct_lt in Ha.
  unfold post, Inv, sum_committed, sum_claimed, get_acct in *. cbn [s_accts s_mod].
  split; [split|split; [exact Hu|]].
  - apply Forall_upd_nth; [exact Hf|exact (conj Hw (conj Hl Hww))].
  - intros d Hv. specialize (Hc d Hv). specialize (Hd d Hv).
    rewrite (zsum_map_upd_nth (fun A => a_claimed A d) a _ _ dflt_acct Ha),
            (zsum_map_upd_nth (fun A => csum d (a_com A)) a _ _ dflt_acct Ha). cbn [a_com a_claimed]. lia.
  - intros d. specialize (Hs d).
    rewrite (zsum_map_upd_nth (fun A => csum d (a_com A)) a _ _ dflt_acct Ha). cbn [a_com]. lia.
Qed.

Lemma commit_liquid_post s a d amt lock s' ups :
  commit_liquid s a d amt lock = Ok (s', ups) -> ups = [TCommit d amt] /\ (Inv s -> post s s' ups).
Proof.
  intros H. apply guard_ok in H as [Ha H]. destruct (s_ap s d) as [[ce we]|]; [|discriminate].
  apply guard_ok in H as [_ H]. destruct (Z.ltb_spec amt 0) as [|N]; [discriminate|].
  apply guard_ok in H as [W [= <- <-]]. apply Z.leb_le in W. split; [reflexivity|]. intros HI.
  destruct (inv_get s a HI) as (Wc & Wl & Ww).
  apply post_upd; try assumption.
  - apply wf_add; auto.
  - apply fadd_nonneg; [exact Ww|lia].
  - intros d0 _. rewrite csum_add, !fadd_eq. destruct (d0 =? d); lia.
  - repeat constructor.
  - intros d0. rewrite csum_add. cbn. destruct (d0 =? d); lia.
Qed.

Lemma commit_claimed_post s a d amt now s' ups :
  commit_claimed s a d amt now = Ok (s', ups) -> ups = [TCommit d amt] /\ (Inv s -> post s s' ups).
Proof.
  intros H. apply guard_ok in H as [Ha H]. destruct (s_ap s d) as [[ce we]|]; [|discriminate].
  apply guard_ok in H as [_ H]. destruct (Z.ltb_spec amt 0) as [|N]; [discriminate|].
  apply guard_ok in H as [W [= <- <-]]. apply Z.leb_le in W. split; [reflexivity|]. intros HI.
  destruct (inv_get s a HI) as (Wc & Wl & Ww).
  apply post_upd; try assumption.
  - apply wf_add; auto.
  - apply fadd_nonneg; [exact Wl|lia].
  - intros d0 _. rewrite csum_add, fadd_eq. destruct (d0 =? d); lia.
  - repeat constructor.
  - intros d0. rewrite csum_add. cbn. destruct (d0 =? d); lia.
Qed.

Lemma burn_post s a d amt now s' ups :
  Inv s -> burn_eden_boost s a d amt now = Ok (s', ups) -> post s s' ups.
Proof.
  intros HI H. apply guard_ok in H as [Ha H]. cbv zeta in H.
  destruct (amt =? 0); [injection H as <- <-; apply post_refl, HI|].
  destruct (inv_get s a HI) as (Wc & Wl & Ww).
  set (A := get_acct s a) in *.
  set (rem := if a_claimed A d <? amt then a_claimed A d else amt) in *.
  destruct (Z.ltb_spec rem 0) as [|N]; [discriminate|].
  destruct (amt - rem =? 0); [injection H as <- <-; apply post_refl, HI|].
  set (amt2 := if camt d (a_com A) <? amt - rem then camt d (a_com A) else amt - rem) in *.
  destruct (amt2 =? 0); [injection H as <- <-; apply post_refl, HI|].
  apply bind_ok in H as (com' & D & [= <- <-]).
  assert (Hrem : rem <= a_claimed A d /\ rem <= amt) by (unfold rem; destruct (Z.ltb_spec (a_claimed A d) amt); lia).
  assert (H2 : 0 <= amt2).
  { unfold amt2. pose proof (camt_nonneg d (a_com A) Wc). destruct (camt d (a_com A) <? amt - rem); lia. }
  apply post_upd; try assumption; fold A.
  - exact (wf_deduct _ _ _ _ _ _ D Wc).
  - apply fadd_nonneg; [exact Wl|lia].
  - intros d0 _. rewrite (csum_deduct d0 _ _ _ _ _ _ D), fadd_eq. destruct (d0 =? d); lia.
  - repeat constructor. exact H2.
  - intros d0. rewrite (csum_deduct d0 _ _ _ _ _ _ D). cbn. destruct (d0 =? d); lia.
Qed.

Lemma virt_eden : is_virtual EDEN = true. Proof. reflexivity. Qed.
Lemma virt_edenb : is_virtual EDENB = true. Proof. reflexivity. Qed.

Lemma hook_post s a u now st re rb s' ups :
  Inv s -> has_acct s a = true -> eden_uncommitted_hook s a u now st re rb = Ok (s', ups) -> post s s' ups.
Proof.
  intros HI Ha H. apply guard_ok in H as [R H]. cbv zeta in H.
  apply andb_true_iff in R as [R1%Z.leb_le R2%Z.leb_le].
  destruct (inv_get s a HI) as (Wc & Wl & Ww).
  match type of H with burn_eden_boost ?s1 _ _ _ _ = _ => assert (P1 : post s s1 []) end.
  { apply post_upd; try assumption.
    - apply fadd_nonneg; [apply fadd_nonneg; [exact Wl|lia]|lia].
    - intros d0 Hv. rewrite !fadd_eq.
      destruct (Z.eqb_spec d0 EDENB) as [->|]; [rewrite virt_edenb in Hv; discriminate|].
      destruct (Z.eqb_spec d0 EDEN) as [->|]; [rewrite virt_eden in Hv; discriminate|]. lia.
    - constructor.
    - intros d0. cbn. lia. }
  exact (post_trans _ _ _ _ _ P1 (burn_post _ _ _ _ _ _ _ (proj1 P1) H)).
Qed.

Lemma uncommit_post s a d amt now liq st re rb s' ups :
  uncommit s a d amt now liq st re rb = Ok (s', ups) ->
  (exists com', deduct_committed d amt now liq (a_com (get_acct s a)) = Ok com') /\ (Inv s -> post s s' ups).
Proof.
  intros H. apply guard_ok in H as [Ha H]. destruct (s_ap s d) as [[ce we]|]; [|discriminate].
  apply guard_ok in H as [_ H]. cbv zeta in H. apply bind_ok in H as (com' & D & H).
  split; [eauto|]. intros HI. destruct (Z.ltb_spec amt 0) as [|N]; [discriminate|].
  apply guard_ok in H as [_ H].
  destruct (inv_get s a HI) as (Wc & Wl & Ww). set (A := get_acct s a) in *.
  match type of H with (if _ then bind (eden_uncommitted_hook ?s1 _ _ _ _ _ _) _ else _) = _ =>
    assert (P1 : post s s1 [TUncommit d amt]) end.
  { apply post_upd; try assumption; fold A.
    - exact (wf_deduct _ _ _ _ _ _ D Wc).
    - destruct (is_virtual d); [apply fadd_nonneg; [exact Wl|lia]|exact Wl].
    - destruct (is_virtual d); [exact Ww|apply fadd_nonneg; [exact Ww|lia]].
    - intros d0 Hv. rewrite (csum_deduct d0 _ _ _ _ _ _ D).
      destruct (is_virtual d) eqn:V; rewrite fadd_eq; destruct (Z.eqb_spec d0 d) as [->|]; try lia; congruence.
    - repeat constructor. exact N.
    - intros d0. rewrite (csum_deduct d0 _ _ _ _ _ _ D). cbn. destruct (d0 =? d); lia. }
  destruct (d =? EDEN).
  - apply bind_ok in H as ([s2 ups2] & HK & [= <- <-]). apply (post_trans _ _ _ [_] _ P1).
    eapply hook_post; [exact (proj1 P1)|rewrite has_acct_upd; exact Ha|exact HK].
  - injection H as <- <-. exact P1.
Qed.

Lemma wallet_post s a d x :
  Inv s -> has_acct s a = true ->
  (0 <= a_wallet (get_acct s a) d -> 0 <= a_wallet (get_acct s a) d + x) ->
  post s (set_acct s a (mkA (a_com (get_acct s a)) (a_claimed (get_acct s a)) (fadd (a_wallet (get_acct s a)) d x))) [].
Proof.
  intros HI Ha Hx. destruct (inv_get s a HI) as (Wc & Wl & Ww).
  apply post_upd; try assumption; [apply fadd_nonneg; assumption|intros; lia|constructor|intros; cbn; lia].
Qed.

Lemma mint_wallet_post s a d amt s' : Inv s -> mint_wallet s a d amt = Ok s' -> post s s' [].
Proof.
  intros HI H. apply guard_ok in H as [Ha H]. apply guard_ok in H as [N%Z.leb_le [= <-]].
  apply wallet_post; auto; lia.
Qed.

Lemma burn_wallet_post s a d amt s' : Inv s -> burn_wallet s a d amt = Ok s' -> post s s' [].
Proof.
  intros HI H. apply guard_ok in H as [Ha H]. apply guard_ok in H as [_ H].
  apply guard_ok in H as [W%Z.leb_le [= <-]]. apply wallet_post; auto; lia.
Qed.

Lemma deposit_claimed_post s a d amt s' : Inv s -> deposit_claimed s a d amt = Ok s' -> post s s' [].
Proof.
  intros HI H. apply guard_ok in H as [Ha H]. destruct (s_ap s d) as [[ce we]|]; [|discriminate].
  apply guard_ok in H as [_ H]. destruct (Z.ltb_spec amt 0) as [|N]; [discriminate|].
  apply guard_ok in H as [W%Z.leb_le [= <-]].
  destruct (inv_get s a HI) as (Wc & Wl & Ww).
  apply post_upd; try assumption.
  - apply fadd_nonneg; [exact Wl|lia].
  - apply fadd_nonneg; [exact Ww|lia].
  - intros d0 _. rewrite !fadd_eq. destruct (d0 =? d); lia.
  - constructor.
  - intros d0. cbn. lia.
Qed.

Lemma add_claimed_post s a d amt s' : Inv s -> add_claimed s a d amt = Ok s' -> post s s' [].
Proof.
  intros HI H. apply guard_ok in H as [Ha H]. apply guard_ok in H as [V H].
  apply guard_ok in H as [N%Z.leb_le [= <-]].
  destruct (inv_get s a HI) as (Wc & Wl & Ww).
  apply post_upd; try assumption.
  - apply fadd_nonneg; [exact Wl|lia].
  - intros d0 Hv. rewrite fadd_eq. destruct (Z.eqb_spec d0 d) as [->|]; [congruence|lia].
  - constructor.
  - intros d0. cbn. lia.
Qed.

Lemma sub_claimed_post s a d amt s' : Inv s -> sub_claimed s a d amt = Ok s' -> post s s' [].
Proof.
  intros HI H. apply guard_ok in H as [Ha H]. destruct (Z.ltb_spec amt 0) as [|N]; [discriminate|].
  apply guard_ok in H as [W%Z.leb_le [= <-]].
  destruct (inv_get s a HI) as (Wc & Wl & Ww).
  apply post_upd; try assumption.
  - apply fadd_nonneg; [exact Wl|lia].
  - intros d0 _. rewrite fadd_eq. destruct (d0 =? d); lia.
  - constructor.
  - intros d0. cbn. lia.
Qed.

Lemma nolog_ok r s' ups : nolog r = Ok (s', ups) -> r = Ok s' /\ ups = [].
Proof. intros H. apply bind_ok in H as (s1 & -> & [= <- <-]). auto. Qed.

Lemma core_post s o s' ups : Inv s -> core s o = Ok (s', ups) -> post s s' ups.
Proof.
  intros HI H. destruct o; cbn [core] in H.
  - exact (proj2 (commit_liquid_post _ _ _ _ _ _ _ H) HI).
  - apply bind_ok in H as (s1 & M & H). pose proof (mint_wallet_post _ _ _ _ _ HI M) as P1.
    exact (post_trans _ _ _ [] _ P1 (proj2 (commit_liquid_post _ _ _ _ _ _ _ H) (proj1 P1))).
  - exact (proj2 (uncommit_post _ _ _ _ _ _ _ _ _ _ _ H) HI).
  - apply guard_ok in H as [_ H]. exact (proj2 (uncommit_post _ _ _ _ _ _ _ _ _ _ _ H) HI).
  - apply bind_ok in H as ([s1 ups1] & U & H). apply bind_ok in H as (s2 & B & [= <- <-]).
    pose proof (proj2 (uncommit_post _ _ _ _ _ _ _ _ _ _ _ U) HI) as P1.
    rewrite <- (app_nil_r ups1). exact (post_trans _ _ _ _ _ P1 (burn_wallet_post _ _ _ _ _ (proj1 P1) B)).
  - exact (proj2 (commit_claimed_post _ _ _ _ _ _ _ H) HI).
  - exact (burn_post _ _ _ _ _ _ _ HI H).
  - apply nolog_ok in H as [H ->]. exact (deposit_claimed_post _ _ _ _ _ HI H).
  - apply nolog_ok in H as [H ->]. exact (add_claimed_post _ _ _ _ _ HI H).
  - apply nolog_ok in H as [H ->]. exact (sub_claimed_post _ _ _ _ _ HI H).
  - apply nolog_ok in H as [H ->]. exact (mint_wallet_post _ _ _ _ _ HI H).
  - apply guard_ok in H as [N%Z.leb_le [= <- <-]]. destruct HI as [Hf Hc].
    split; [split; [exact Hf|]|split; [constructor|intros d0; unfold sum_committed; cbn; lia]].
    intros d0 Hv. specialize (Hc d0 Hv). unfold sum_committed, sum_claimed in *. cbn [s_accts s_mod].
    rewrite fadd_eq. destruct (d0 =? d); lia.
  - injection H as <- <-. destruct HI as [Hf Hc].
    split; [split; [exact Hf|exact Hc]|split; [constructor|intros d0; unfold sum_committed; cbn; lia]].
Qed.

Lemma fold_apply fu fb ups t d :
  fold_left (apply_tup fu fb) ups t d = t d + zsum (map (dtot fu fb d) ups).
Proof.
  revert t; induction ups as [|u r IH]; intros t; cbn; [lia|]. rewrite IH.
  destruct u; cbn; rewrite ?fadd_eq; [lia..|]. destruct fb; rewrite ?fadd_eq; lia.
Qed.

Lemma dtot_ge fu fb d ups :
  Forall up_ok ups -> zsum (map (dtot true true d) ups) <= zsum (map (dtot fu fb d) ups).
Proof.
  induction 1 as [|u r Hu _ IH]; cbn; [lia|].
  destruct u; cbn in *; destruct (d =? d0); destruct fu; destruct fb; lia.
Qed.

Definition HInv (fu fb : bool) (s : state) : Prop :=
  Inv (s_led s) /\
  forall d, sum_committed d (s_led s) <= s_total s d /\
            (fu = true -> fb = true -> s_total s d = sum_committed d (s_led s)).

Lemma step_inv fu fb s o s' : HInv fu fb s -> step_gen fu fb s o = Ok s' -> HInv fu fb s'.
Proof.
  intros [HI HT] H. apply bind_ok in H as ([l ups] & C & [= <-]).
  destruct (core_post _ _ _ _ HI C) as (I' & Fu & Es).
  split; [exact I'|]. intros d. cbn. rewrite fold_apply, Es. destruct (HT d) as [G E]. split.
  - pose proof (dtot_ge fu fb d ups Fu). lia.
  - intros -> ->. rewrite E by reflexivity. reflexivity.
Qed.

Lemma zsum_map_repeat {A} (f : A -> Z) x n : f x = 0 -> zsum (map f (repeat x n)) = 0.
Proof. intros H. induction n; cbn; lia. Qed.

Lemma init_inv fu fb n : HInv fu fb (init_state n).
Proof.
  unfold HInv, init_state, Inv, sum_committed, sum_claimed. cbn [s_led s_total s_accts s_mod].
  split; [split|].
  - apply Forall_forall. intros A ->%repeat_spec. exact wf_dflt.
  - intros d _. rewrite !zsum_map_repeat by reflexivity. unfold zero. lia.
  - intros d. rewrite zsum_map_repeat by reflexivity. unfold zero. split; [lia|reflexivity].
Qed.

Lemma run_inv fu fb s ops : HInv fu fb s -> HInv fu fb (run_gen fu fb s ops).
Proof.
  intros Hs. apply (execs_inv (HInv fu fb) (fun _ => True) (step_gen fu fb)); [|apply Forall_all; auto|exact Hs].
  intros s1 o s' _. apply step_inv.
Qed.

Definition refute_ops : list op :=
  [OSetProfile EDEN (Some (true, true)); OAddClaimed 0 EDEN 100; OCommitClaimed 0 EDEN 100 1000;
   OUncommitMsg 0 EDEN 100 1000 0 0 0].

Definition refute_burn_ops : list op :=
  [OSetProfile EDEN (Some (true, true)); OSetProfile EDENB (Some (true, true));
   OAddClaimed 0 EDEN 100; OAddClaimed 0 EDENB 100;
   OCommitClaimed 0 EDENB 100 1000; OCommitClaimed 0 EDEN 100 1000;
   OUncommitMsg 0 EDEN 100 1005 0 0 0].

Lemma exec_same_ledger fu fb fu' fb' s1 s2 o :
  s_led s1 = s_led s2 -> s_led (exec_gen fu fb s1 o) = s_led (exec_gen fu' fb' s2 o).
Proof.
  intros E. unfold exec_gen, run_tx, step_gen. rewrite E.
  destruct (core (s_led s2) o) as [[l ups]| |]; cbn; auto.
Qed.

Definition only_commits (ups : list tup) : Prop := Forall (fun u => exists d x, u = TCommit d x) ups.

Lemma fold_only_commits fu fb fu' fb' ups : only_commits ups -> forall t,
  fold_left (apply_tup fu fb) ups t = fold_left (apply_tup fu' fb') ups t.
Proof. induction 1 as [|u r (d & x & ->) _ IH]; intros t; cbn; auto. Qed.

Lemma core_off_site s o s' ups : total_site o = false -> core s o = Ok (s', ups) -> only_commits ups.
Proof.
  assert (C : forall d x, only_commits [TCommit d x]) by (repeat constructor; eauto).
  intros Hs H. destruct o; try discriminate; cbn [core] in H.
  - apply commit_liquid_post in H as [-> _]. apply C.
  - apply bind_ok in H as (s1 & _ & H). apply commit_liquid_post in H as [-> _]. apply C.
  - apply commit_claimed_post in H as [-> _]. apply C.
  - apply nolog_ok in H as [_ ->]. constructor.
  - apply nolog_ok in H as [_ ->]. constructor.
  - apply nolog_ok in H as [_ ->]. constructor.
  - apply nolog_ok in H as [_ ->]. constructor.
  - apply guard_ok in H as [_ [= _ <-]]. constructor.
  - injection H as _ <-. constructor.
Qed.

Definition uncommit_of (o : op) : option (nat * Z * Z * Z * bool) :=
  match o with
  | OUncommit a d amt now liq _ _ _ => Some (a, d, amt, now, liq)
  | OUncommitMsg a d amt now _ _ _ => Some (a, d, amt, now, false)
  | OUncommitBurn a d amt now liq => Some (a, d, amt, now, liq)
  | _ => None
  end.

(* each of the three entry points is Keeper.UncommitTokens behind at most a guard, followed by at most a burn *)
Lemma core_uncommit s o a d amt now liq :
  uncommit_of o = Some (a, d, amt, now, liq) ->
  exists st re rb, let u := uncommit s a d amt now liq st re rb in
    (forall r, core s o = Ok r -> exists r1, u = Ok r1) /\ (forall e, u = Err e -> exists e', core s o = Err e').
Proof.
  intros U. destruct o; try discriminate; injection U as ? ? ? ? ?; subst; cbn [core].
  - exists staked, rew_e, rew_b. split; eauto.
  - exists staked, rew_e, rew_b. split; [intros r H; apply guard_ok in H as [_ H]; eauto|].
    intros e ->. destruct (is_virtual _); cbn; eauto.
  - exists 0, 0, 0. split; [intros r H; apply bind_ok in H as (r1 & H & _); eauto|].
    intros e ->. cbn. eauto.
Qed.

Lemma uncommit_op_guard s o a d amt now liq r :
  uncommit_of o = Some (a, d, amt, now, liq) -> core s o = Ok r ->
  let com := a_com (get_acct s a) in
  0 <= camt d com - amt /\ locked_sum (filter (keep_lock now liq) (clocks d com)) <= camt d com - amt.
Proof.
  intros U C. destruct (core_uncommit s o _ _ _ _ _ U) as (st & re & rb & K & _).
  destruct (K r C) as ([s1 ups] & Hu). apply uncommit_post in Hu as [(com' & D) _].
  exact (deduct_guard _ _ _ _ _ _ D).
Qed.

Lemma uncommit_overdraw s a d amt now liq st re rb :
  camt d (a_com (get_acct s a)) < amt -> exists e, uncommit s a d amt now liq st re rb = Err e.
Proof.
  intros H. unfold uncommit, guard. destruct (has_acct s a); [|eexists; reflexivity].
  destruct (s_ap s d) as [[ce [|]]|]; try (eexists; reflexivity).
  rewrite (deduct_overdraw _ _ _ _ _ H). eexists; reflexivity.
Qed.

Lemma step_err fu fb s o e :
  core (s_led s) o = Err e -> step_gen fu fb s o = Err e /\ exec_gen fu fb s o = s.
Proof.
  intros C. assert (S : step_gen fu fb s o = Err e) by (unfold step_gen; rewrite C; reflexivity).
  split; [exact S|]. unfold exec_gen, run_tx. rewrite S. reflexivity.
Qed.

Lemma uncommit_progress s a d amt now liq st re rb ce com' :
  has_acct s a = true -> s_ap s d = Some (ce, true) -> d <> EDEN -> 0 <= amt ->
  deduct_committed d amt now liq (a_com (get_acct s a)) = Ok com' ->
  (is_virtual d = false -> amt <= s_mod s d) ->
  exists r, uncommit s a d amt now liq st re rb = Ok r.
Proof.
  intros Ha Hp Hd N D M. unfold uncommit. rewrite Ha, Hp, D. cbn.
  destruct (Z.ltb_spec amt 0); [lia|].
  assert (G : is_virtual d || (amt =? 0) || (amt <=? s_mod s d) = true).
  { destruct (is_virtual d); [reflexivity|]. apply orb_true_iff. right. apply Z.leb_le. auto. }
  rewrite G. destruct (Z.eqb_spec d EDEN); [contradiction|]. cbn. eauto.
Qed.
