From Coq Require Import ZArith List.
From Elys Require Import Base.Res Base.ResFacts Models.PerpBacking Proofs.PerpBackingProofs Models.PerpBackingMulti.
Import ListNotations.
Open Scope Z_scope.

Definition MInv (assets : nat -> list nat) (f : mbst) : Prop := forall p, Inv (assets p) (f p).

Lemma mb_upd_same f p s : mb_upd f p s p = s.
Proof. unfold mb_upd. rewrite Nat.eqb_refl. reflexivity. Qed.
Lemma mb_upd_other f p s x : x <> p -> mb_upd f p s x = f x.
Proof. intros H. unfold mb_upd. destruct (Nat.eqb_spec x p); [contradiction|reflexivity]. Qed.

Lemma mb_upd_inv assets f p s : MInv assets f -> Inv (assets p) s -> MInv assets (mb_upd f p s).
Proof. intros HF HS x. unfold mb_upd. destruct (Nat.eqb_spec x p) as [->|]; [exact HS|apply HF]. Qed.

Lemma mhrun_inv assets l : forall f f', MInv assets f -> mhrun assets f l = Ok f' -> MInv assets f'.
Proof.
  induction l as [|[p h] r IH]; intros f f' HI H; cbn [mhrun] in H; [injection H as <-; exact HI|].
  apply bind_ok in H as (s1 & E & H). apply (IH _ _ (mb_upd_inv assets f p s1 HI (hstep_inv _ _ h s1 (HI p) E)) H).
Qed.

Theorem mbrun_inv assets h : forall f, MInv assets f -> MInv assets (mbrun assets f h).
Proof.
  intros f. apply (fold_inv (MInv assets) (fun _ => True) (mustep assets)); [|apply Forall_all; auto].
  intros f1 [l|l] _; cbn [mustep].
  - apply (run_tx_rel (fun f f' => MInv assets f -> MInv assets f')); [auto|]. intros f' H HI. exact (mhrun_inv assets l f1 f' HI H).
  - apply (fold_inv (MInv assets) (fun _ => True) (mitem assets)); [|apply Forall_all; auto].
    intros f2 [p it] _ HI. apply mb_upd_inv; [exact HI|]. apply item_atomic_inv, HI.
Qed.

Lemma mb_empty_inv assets : MInv assets mb_empty.
Proof. intros p. apply b_empty_inv. Qed.

(* The family projects onto the one-pool machine: this is what the per-pool replay of the harness evaluates. *)
Lemma mhrun_proj assets p l : forall f f', mhrun assets f l = Ok f' -> hrun (assets p) (f p) (hops_of p l) = Ok (f' p).
Proof.
  induction l as [|[q h] r IH]; intros f f'; cbn [mhrun].
  - intros H; inversion H; subst; reflexivity.
  - destruct (hstep (assets q) (f q) h) as [s1| |] eqn:E; cbn [bind]; try discriminate.
    intros H. specialize (IH _ _ H). unfold hops_of in *. cbn [filter fst]. destruct (Nat.eqb_spec q p) as [->|Ne].
    + cbn [map snd hrun]. rewrite E. cbn [bind]. rewrite mb_upd_same in IH. exact IH.
    + rewrite mb_upd_other in IH by congruence. exact IH.
Qed.

Lemma mitems_proj assets p l : forall f,
  fold_left (mitem assets) l f p = fold_left (item_atomic (assets p)) (items_of p l) (f p).
Proof.
  induction l as [|[q it] r IH]; intros f; cbn [fold_left]; [reflexivity|].
  rewrite IH. unfold items_of, mitem. cbn [filter fst snd]. destruct (Nat.eqb_spec q p) as [->|Ne].
  - cbn [map snd fold_left]. rewrite mb_upd_same. reflexivity.
  - rewrite mb_upd_other by congruence. reflexivity.
Qed.

Lemma mutx_rejected assets f l : is_ok (mhrun assets f l) = false -> mustep assets f (MUTx l) = f.
Proof. cbn [mustep]. unfold run_tx. destruct (mhrun assets f l); cbn; [discriminate|reflexivity|reflexivity]. Qed.
