From Coq Require Import ZArith List Lia.
From Elys Require Import Base.ResFacts Base.Fn Models.SumLedger Models.LevLedger Proofs.LevLedgerProofs Models.LevLedgerMulti.
Import ListNotations.
Open Scope Z_scope.

Definition MLInv (pools : list nat) (s : mlev) : Prop :=
  (forall p, LInv (ml_pool s p)) /\
  ml_count s = sumf (fun p => count (l_sl (ml_pool s p))) pools.

Lemma mlexec_inv pools s po : NoDup pools -> In (fst po) pools -> 0 < pos_amt (snd po) -> MLInv pools s -> MLInv pools (mlexec s po).
Proof.
  intros ND Hin Hp (HL & HC). destruct po as [p o]. cbn [fst snd] in *. unfold mlexec. split; cbn [ml_pool ml_count].
  - intros x. unfold ml_upd. destruct (Nat.eqb x p); [|apply HL].
    apply (run_tx_rel (fun s s' => LInv s -> LInv s')); [auto| |apply HL]. intros s' H HI. exact (lstep_inv _ o s' HI Hp H).
  - rewrite HC. symmetry. apply (sumf_point _ _ p); auto.
    intros x. unfold ml_upd. destruct (Nat.eqb_spec x p) as [->|]; lia.
Qed.

Theorem mlrun_inv pools h : NoDup pools -> forall s, MLInv pools s ->
  Forall (fun po => In (fst po) pools /\ 0 < pos_amt (snd po)) h -> MLInv pools (mlrun s h).
Proof.
  intros ND s HI Hf. revert s Hf HI. apply fold_inv. intros s po [H1 H2]. apply mlexec_inv; assumption.
Qed.

Lemma mlev_empty_inv pools : MLInv pools mlev_empty.
Proof. split; cbn; [intros _; apply lev_empty_inv|symmetry; apply sumf_zero]. Qed.

Lemma mlrun_untouched h : forall s p, Forall (fun po => fst po <> p) h -> ml_pool (mlrun s h) p = ml_pool s p.
Proof.
  intros s p. revert s. apply (fold_rel (fun s s' => ml_pool s' p = ml_pool s p)); [reflexivity|congruence|].
  intros s [q o] Hq. cbn in *. unfold ml_upd. destruct (Nat.eqb_spec p q); [congruence|reflexivity].
Qed.
