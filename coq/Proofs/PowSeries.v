(* Bounds on the fixed-point power function Pow of x/amm/types (model: Models/AmmSwap.v [pow]) - part 2:
   range facts of the FRACTIONAL path that hold for every exponent:
     - ApproxSqrt (Newton iteration with rounding) on d >= 1 returns a value in [1, d];
     - maclaurinSeriesApproximation on a base in [1,2) is an alternating series with non-increasing terms:
       every partial sum lies in [1, base];
     - on a base in [0.5,1) every term is subtracted and the terms decay geometrically: every partial sum is in [0,1];
   and what they give for Pow as a whole. The ln/exp method (bases outside [0.5,2) with a fractional exponent other
   than 1/2) is NOT covered. *)
From Coq Require Import ZArith List Lia.
From Elys Require Import Base.Res Base.Zdec Models.AmmSwap Proofs.AmmSwapProofs Proofs.PowBounds.
Import ListNotations.
Open Scope Z_scope.

(* fuelled loops whose step is [lift (do ...)]: invariant I, postcondition Q on an Ok result *)
Definition okP {A} (Q : A -> Prop) (r : res A) : Prop := match r with Ok v => Q v | _ => True end.
Definition lpP {S A} (I : S -> Prop) (Q : A -> Prop) (r : lp S (res A)) : Prop :=
  match r with Cont s => I s | Done r => okP Q r end.

Lemma lift_chk {S A} (I : S -> Prop) (Q : A -> Prop) x (k : Z -> res (lp S (res A))) :
  lpP I Q (lift (k x)) -> lpP I Q (lift (bind (chk x) k)).
Proof. intros H. unfold chk. destruct (in_range x); [exact H|exact Logic.I]. Qed.

Lemma lift_cquo {S A} (I : S -> Prop) (Q : A -> Prop) a b (k : Z -> res (lp S (res A))) :
  lpP I Q (lift (k (dquo a b))) -> lpP I Q (lift (bind (cquo a b) k)).
Proof. intros H. unfold cquo. destruct (b =? 0); [exact Logic.I|apply lift_chk, H]. Qed.

Lemma iter_fuel_inv {S A} (I : S -> Prop) (Q : A -> Prop) (f : S -> lp S (res A)) :
  (forall s, I s -> lpP I Q (f s)) -> forall p s, I s -> lpP I Q (iter_fuel p f s).
Proof.
  intros Hf. induction p as [p IH|p IH|]; intros s Hs; simpl.
  - pose proof (Hf s Hs) as H1. destruct (f s) as [s1|r]; [|exact H1].
    pose proof (IH s1 H1) as H2. destruct (iter_fuel p f s1) as [s2|r]; [|exact H2].
    exact (IH s2 H2).
  - pose proof (IH s Hs) as H1. destruct (iter_fuel p f s) as [s1|r]; [|exact H1].
    exact (IH s1 H1).
  - exact (Hf s Hs).
Qed.

Lemma run_loop_okP {S A} (I : S -> Prop) (Q : A -> Prop) (f : S -> lp S (res A)) p s v :
  (forall s, I s -> lpP I Q (f s)) -> I s -> run_loop p f s = Ok v -> Q v.
Proof.
  intros Hf Hs H. unfold run_loop in H. pose proof (iter_fuel_inv I Q f Hf p s Hs) as K.
  destruct (iter_fuel p f s) as [s'|r]; [discriminate|]. subst r. exact K.
Qed.

(* halving rounds towards 0: a Newton step g + (q - g) quo 2 ends between g and the mean of g and q *)
Lemma quot2_mid z : (0 <= z -> 0 <= 2 * Z.quot z 2 <= z) /\ (z <= 0 -> z <= 2 * Z.quot z 2 <= 0).
Proof.
  pose proof (Z.quot_rem' z 2). pose proof (Z.rem_bound_pos_pos z 2). pose proof (Z.rem_bound_pos_neg z 2). lia.
Qed.

Lemma approx_sqrt_inv (P : Z -> Prop) d v :
  P ONE -> (forall g, P g -> P (g + Z.quot (dquo d (if g =? 0 then 1 else g) - g) 2)) ->
  approx_sqrt d = Ok v -> P v.
Proof.
  intros H1 Hstep H. unfold approx_sqrt in H.
  destruct (Z.eqb_spec d ONE) as [->|_]; [injection H as <-; exact H1|].
  refine (run_loop_okP (fun st : Z * Z => P (snd st)) P _ _ (0, ONE) _ _ H1 H).
  intros [iter g] Hg. unfold sqrt_step. destruct (ROOT_ITER <=? iter); [exact Hg|].
  apply lift_chk. rewrite dmul_one_r. apply lift_cquo, lift_chk, lift_chk.
  cbn [lift]. destruct (Z.abs _ <=? 1); exact (Hstep g Hg).
Qed.

(* above 1 the mean of g and d/g is at least 1 (the geometric mean sqrt d is), also after the two roundings *)
Lemma sqrt_newton_lb d g : PREC <= d -> PREC <= g -> PREC <= g + Z.quot (dquo d g - g) 2.
Proof.
  intros Hd Hg. pose proof PREC_pos as HP. pose proof HALF_PREC as HH.
  set (q := dquo d g). pose proof (quot2_mid (q - g)) as M. set (g' := g + Z.quot (q - g) 2).
  destruct (Z_le_gt_dec g q) as [L|G]; [lia|].
  destruct (dquo_bounds d g ltac:(lia) ltac:(lia)) as [Q0 [Q1 _]]. fold q in Q0, Q1.
  destruct (Z_le_gt_dec PREC g') as [K|K]; [exact K|exfalso].
  assert (Hq : q <= 2 * PREC - 2 - g) by lia.
  assert (HPg : 0 < PREC * g) by (apply Z.mul_pos_pos; lia).
  assert (E1 : q * (PREC * g) <= (2 * PREC - 2 - g) * (PREC * g)) by (apply Z.mul_le_mono_nonneg_r; lia).
  assert (E2 : PREC * (PREC * PREC) <= d * (PREC * PREC)) by (apply Z.mul_le_mono_nonneg_r; [apply Z.mul_nonneg_nonneg|]; lia).
  assert (E3 : 0 <= PREC * ((g - PREC) * (g - PREC))) by (apply Z.mul_nonneg_nonneg; [lia|apply Z.square_nonneg]).
  assert (E4 : 0 < (2 * PREC - 1 - HALF) * g) by (apply Z.mul_pos_pos; lia).
  clear - Q1 E1 E2 E3 E4. lia.
Qed.

Lemma approx_sqrt_range d v : PREC <= d -> approx_sqrt d = Ok v -> PREC <= v <= d.
Proof.
  intros Hd. pose proof PREC_pos. apply (approx_sqrt_inv (fun g => PREC <= g <= d)); [unfold ONE; lia|].
  intros g Hg. destruct (Z.eqb_spec g 0); [lia|].
  split; [apply sqrt_newton_lb; lia|].
  assert (Hq : dquo d g <= d) by (rewrite <- (dquo_one_r d) at 2; apply dquo_mono; lia).
  pose proof (quot2_mid (dquo d g - g)). lia.
Qed.

Lemma approx_sqrt_nonneg d v : 0 <= d -> approx_sqrt d = Ok v -> 0 <= v.
Proof.
  intros Hd. apply (approx_sqrt_inv (fun g => 0 <= g)); [discriminate|].
  intros g Hg. assert (Hq : 0 <= dquo d (if g =? 0 then 1 else g))
    by (apply dquo_nonneg; [exact Hd|destruct (Z.eqb_spec g 0); lia]).
  pose proof (quot2_mid (dquo d (if g =? 0 then 1 else g) - g)). lia.
Qed.

Lemma abs_split k e : (if k <=? e then (e - k, false) else (k - e, true)) = (Z.abs (e - k), e <? k).
Proof. destruct (Z.leb_spec k e), (Z.ltb_spec e k); try lia; f_equal; lia. Qed.

(* maclaurinSeriesApproximation: at the loop head (i, term, sum, neg) the next term is t = term * |e - (i-1)| * x / i
   with x = |base - 1|, added to or subtracted from the sum according to the three signs; the loop leaves with the
   sum reached *)

Lemma maclaurin_inv (I : Z * Z * Z * bool -> Prop) (Q : Z -> Prop) y e v :
  I (1, PREC, PREC, false) ->
  (forall i term sum neg, I (i, term, sum, neg) ->
     Q sum /\
     (POW_PRECISION <= term -> forall t n,
      t = dquo (dmul (dmul term (Z.abs (e - (i - 1) * PREC))) (Z.abs (y - PREC))) (i * PREC) ->
      n = (let n1 := if y <? PREC then negb neg else neg in if e <? (i - 1) * PREC then negb n1 else n1) ->
      t <> 0 -> I (i + 1, t, (if n then sum - t else sum + t), n))) ->
  maclaurin y e = Ok v -> Q v.
Proof.
  intros H1 Hstep H. unfold maclaurin in H. rewrite abs_split in H. unfold ONE in H.
  refine (run_loop_okP I Q _ _ _ _ _ H1 H).
  intros [[[i term] sum] neg] Hs. destruct (Hstep _ _ _ _ Hs) as [HQ HN].
  unfold mac_step. destruct (Z.ltb_spec term POW_PRECISION); [exact HQ|]. cbv zeta. rewrite abs_split.
  apply lift_chk, lift_chk, lift_cquo.
  specialize (HN ltac:(assumption) _ _ eq_refl eq_refl). cbv zeta in HN.
  destruct (_ =? 0) eqn:Ht; [exact HQ|]. apply Z.eqb_neq in Ht. specialize (HN Ht).
  destruct (if e <? (i - 1) * PREC then _ else _); apply lift_chk; destruct (i =? POW_ITER_LIMIT); (exact Logic.I || exact HN).
Qed.

Lemma mac_term_le i term c x : 1 <= i -> 0 <= term <= PREC -> 0 <= c <= i * PREC -> 0 <= x <= PREC ->
  0 <= dquo (dmul (dmul term c) x) (i * PREC) <= Z.min term x.
Proof.
  intros Hi Ht Hc Hx. pose proof PREC_pos as HP.
  assert (T1 : 0 <= dmul term c <= i * term /\ dmul term c <= i * PREC).
  { split; [split; [apply dmul_nonneg; lia|]|].
    - rewrite <- (dmul_int_r term i). apply dmul_mono; lia.
    - rewrite <- (dmul_one_l (i * PREC)). apply dmul_mono; lia. }
  set (v := dmul (dmul term c) x).
  assert (T2 : 0 <= v <= i * term /\ v <= i * x).
  { split; [pose proof (dmul_le_l (dmul term c) x); lia|].
    rewrite <- (dmul_int_l i x). apply dmul_mono; lia. }
  assert (D : forall u, v <= i * u -> dquo v (i * PREC) <= u).
  { intros u Hu. rewrite <- (dquo_exact (i * u) (i * PREC) u) by (nia || ring). apply dquo_mono; nia. }
  split; [apply dquo_nonneg; nia|]. apply Z.min_glb; apply D; lia.
Qed.

Section MacGeOne.
  Variables y e : Z.
  Hypothesis Hy : PREC <= y < TWO.
  Hypothesis He : 0 < e < PREC.

  (* the sign of the next term is computed as the loop will; on that side of the sum there is room for the term *)
  Definition mac_inv1 (st : Z * Z * Z * bool) : Prop :=
    let '(i, term, sum, neg) := st in
    1 <= i /\ 0 <= term <= PREC /\ PREC <= sum <= y /\
    if (if e <? (i - 1) * PREC then negb neg else neg) then PREC <= sum - term else sum + Z.min term (y - PREC) <= y.

  Lemma maclaurin_ge_one v : maclaurin y e = Ok v -> PREC <= v <= y.
  Proof.
    pose proof PREC_pos as HP. unfold TWO in Hy.
    apply (maclaurin_inv mac_inv1 (fun v => PREC <= v <= y)).
    { unfold mac_inv1. change ((1 - 1) * PREC) with 0. destruct (Z.ltb_spec e 0); lia. }
    intros i term sum neg (Hi & Ht & Hs & Hc). split; [exact Hs|]. intros _ t n Et En Ht0.
    destruct (Z.ltb_spec y PREC); [lia|]. rewrite (Z.abs_eq (y - PREC)) in Et by lia. cbv zeta in En.
    assert (B : 0 <= t <= Z.min term (y - PREC)) by (subst t; apply mac_term_le; nia).
    rewrite <- En in Hc. unfold mac_inv1.
    destruct (Z.ltb_spec e ((i + 1 - 1) * PREC)); [|nia]. destruct n; cbn [negb]; lia.
  Qed.
End MacGeOne.

(* base in [0.5, 1): the subtracted terms decay geometrically (ratio <= 1/4 + for the second term,
   <= 1/2 + 10^-10 afterwards), so every partial sum stays in [0, 1] *)
Lemma dmul_half_le u x : 0 <= u -> 0 <= x <= HALF -> 0 <= dmul u x /\ 2 * dmul u x <= u + 1.
Proof.
  intros Hu Hx. pose proof PREC_pos as HP. pose proof HALF_PREC as HH.
  split; [apply dmul_nonneg; lia|].
  assert (M : dmul u x <= dmul u HALF) by (apply dmul_mono; lia).
  destruct (dmul_bounds u HALF Hu ltac:(lia)) as [_ [_ B]].
  assert (2 * (dmul u HALF * PREC) <= (u + 1) * PREC) by (rewrite <- HH; lia).
  assert (2 * dmul u HALF <= u + 1) by nia. lia.
Qed.

Lemma dquo_int_le v i : 0 <= v -> 1 <= i -> 0 <= dquo v (i * PREC) /\ 2 * (i * dquo v (i * PREC)) <= 2 * v + i.
Proof.
  intros Hv Hi. pose proof PREC_pos. destruct (dquo_half v (i * PREC) Hv ltac:(nia)). split; [assumption|nia].
Qed.

(* the next term when its coefficient c is at most k and x <= 1/2: about k/(2i) of the previous one *)
Lemma mac_term_half i k term c x t : 1 <= i -> 0 <= term -> 0 <= x <= HALF ->
  t = dquo (dmul (dmul term c) x) (i * PREC) -> 0 <= c <= k * PREC -> 0 <= t /\ 4 * (i * t) <= 2 * (k * term) + 2 + 2 * i.
Proof.
  intros Hi Ht Hx -> Hc. pose proof PREC_pos as HP.
  assert (B1 : 0 <= dmul term c <= k * term).
  { split; [apply dmul_nonneg; lia|]. rewrite <- (dmul_int_r term k). apply dmul_mono; lia. }
  destruct (dmul_half_le (dmul term c) x ltac:(lia) Hx) as [B2a B2b].
  destruct (dquo_int_le (dmul (dmul term c) x) i B2a Hi) as [B3a B3b]. lia.
Qed.

Section MacHalfToOne.
  Variables y e : Z.
  Hypothesis Hy : HALF <= y < PREC.
  Hypothesis He : 0 < e < PREC.

  Definition mac_inv2 (st : Z * Z * Z * bool) : Prop :=
    let '(i, term, sum, neg) := st in
    1 <= i /\ 0 <= term /\ sum <= PREC /\
    ((i = 1 /\ neg = false /\ term = PREC /\ sum = PREC) \/
     (i = 2 /\ neg = true /\ term <= HALF + 1 /\ PREC - term <= sum) \/
     (3 <= i /\ neg = true /\ 105 * term <= 100 * sum)).

  Lemma maclaurin_half_to_one v : maclaurin y e = Ok v -> 0 <= v <= PREC.
  Proof.
    pose proof PREC_pos as HP. pose proof HALF_PREC as HH.
    apply (maclaurin_inv mac_inv2 (fun v => 0 <= v <= PREC)); [unfold mac_inv2; intuition lia|].
    intros i term sum neg (Hi & Ht & Hs & Hc).
    assert (Hsum0 : 0 <= sum) by (destruct Hc as [?|[?|?]]; lia).
    split; [lia|]. unfold POW_PRECISION. intros Eprec t n Et En Ht0.
    destruct (Z.ltb_spec y PREC); [|lia]. cbv zeta in En.
    assert (Hx : 0 <= Z.abs (y - PREC) <= HALF) by lia.
    destruct Hc as [(-> & -> & -> & ->)|[(-> & -> & Hth & Hsl)|(Hi3 & -> & Hinv)]].
    - (* i = 1: t = e*x <= 1/2, up to the rounding *)
      change ((1 - 1) * PREC) with 0 in *. destruct (Z.ltb_spec e 0); [lia|]. subst n. cbn [negb].
      destruct (mac_term_half 1 1 PREC _ _ t Hi Ht Hx Et) as [B0 B1]; [lia|].
      unfold mac_inv2. intuition lia.
    - (* i = 2: t' <= t/4 + 3/4 *)
      change ((2 - 1) * PREC) with PREC in *. destruct (Z.ltb_spec e PREC); [|lia]. subst n. cbn [negb].
      destruct (mac_term_half 2 1 term _ _ t Hi Ht Hx Et) as [B0 B1]; [lia|].
      unfold mac_inv2. split; [lia|]. split; [lia|]. split; [lia|]. right. right.
      split; [lia|]. split; [reflexivity|]. unfold PREC, HALF in *. lia.
    - (* i >= 3: t' <= (t+1)/2 <= 0.51 t because t >= 10^-8 *)
      destruct (Z.ltb_spec e ((i - 1) * PREC)); [|nia]. subst n. cbn [negb].
      destruct (mac_term_half i (i - 1) term _ _ t Hi Ht Hx Et) as [B0 B1]; [lia|].
      assert (K : 205 * t <= 105 * term).
      { assert (K1 : i * 10000000000 <= i * term) by (apply Z.mul_le_mono_nonneg_l; lia).
        apply Z.mul_le_mono_pos_l with (4 * i); lia. }
      unfold mac_inv2. intuition lia.
  Qed.
End MacHalfToOne.

Lemma power_approx_mac y f fp : f <> HALF -> HALF <= y < TWO ->
  power_approx y f = Ok fp -> maclaurin y f = Ok fp.
Proof.
  intros Hf Hy. unfold power_approx. destruct (Z.eqb_spec f HALF); [contradiction|].
  destruct (Z.leb_spec HALF y); [|lia]. destruct (Z.ltb_spec y TWO); [trivial|lia].
Qed.

(* the fractional factor of a base >= 1: the square root, or the series when the base is below 2 *)
Lemma power_approx_ge_one y f fp : PREC <= y -> 0 < f < PREC -> (y < TWO \/ f = HALF) ->
  power_approx y f = Ok fp -> PREC <= fp <= y.
Proof.
  intros Hy Hf Hc H. pose proof HALF_PREC as HH. destruct (Z.eq_dec f HALF) as [->|EH].
  - unfold power_approx in H. rewrite Z.eqb_refl in H. exact (approx_sqrt_range y fp Hy H).
  - apply power_approx_mac in H; [|exact EH|lia]. exact (maclaurin_ge_one y f ltac:(lia) Hf fp H).
Qed.

Lemma pow_ge_one y e pw : PREC <= y -> 0 <= e ->
  (y < TWO \/ Z.rem e PREC = 0 \/ Z.rem e PREC = HALF) ->
  pow y e = Ok pw -> PREC <= pw.
Proof.
  intros Hy He Hc H. pose proof PREC_pos as HP.
  destruct (pow_shape y e pw He H) as (_ & ip & Hip & Hr).
  pose proof (power_ge_one y _ ip Hy Hip) as Hip1.
  destruct Hr as [[_ ->]|(Hnz & fp & Hfp & ->)]; [exact Hip1|].
  apply dmul_ge_one; [exact Hip1|].
  pose proof (Z.rem_bound_pos e PREC He HP) as Hrb.
  exact (proj1 (power_approx_ge_one y (Z.rem e PREC) fp Hy ltac:(lia) ltac:(tauto) Hfp)).
Qed.

Lemma pow_le_base y e pw : PREC <= y -> 0 <= e <= PREC ->
  (y < TWO \/ e = 0 \/ e = HALF \/ e = PREC) ->
  pow y e = Ok pw -> PREC <= pw <= y.
Proof.
  intros Hy He Hc H. pose proof PREC_pos as HP.
  destruct (Z.eq_dec e PREC) as [->|Hne].
  { apply pow_one in H. lia. }
  destruct (pow_shape y e pw ltac:(lia) H) as (_ & ip & Hip & Hrr).
  rewrite Z.quot_small in Hip by lia. rewrite Z.rem_small in Hrr by lia. injection Hip as <-.
  destruct Hrr as [[_ ->]|(Hnz & fp & Hfp & ->)]; [unfold ONE; lia|].
  unfold ONE. rewrite dmul_one_l. exact (power_approx_ge_one y e fp Hy ltac:(lia) ltac:(lia) Hfp).
Qed.

Lemma pow_range_le_one y e pw : y <= PREC -> 0 <= e ->
  (Z.rem e PREC = 0 \/ (HALF <= y /\ Z.rem e PREC <> HALF)) ->
  pow y e = Ok pw -> 0 <= pw <= PREC.
Proof.
  intros Hy He Hc H. pose proof PREC_pos as HP.
  destruct (pow_shape y e pw He H) as (Hy0 & ip & Hip & Hr).
  pose proof (power_le_one y _ ip ltac:(lia) Hip) as Hip1.
  destruct Hr as [[_ ->]|(Hnz & fp & Hfp & ->)]; [lia|].
  destruct Hc as [Hz|[Hh Hnh]]; [contradiction|].
  pose proof (Z.rem_bound_pos e PREC He HP) as Hrb.
  apply power_approx_mac in Hfp; [|exact Hnh|unfold TWO; lia].
  assert (0 <= fp <= PREC).
  { destruct (Z.eq_dec y PREC) as [->|Hny].
    - pose proof (maclaurin_ge_one PREC (Z.rem e PREC) ltac:(unfold TWO; lia) ltac:(lia) fp Hfp). lia.
    - exact (maclaurin_half_to_one y (Z.rem e PREC) ltac:(lia) ltac:(lia) fp Hfp). }
  pose proof (dmul_le_l ip fp). lia.
Qed.
