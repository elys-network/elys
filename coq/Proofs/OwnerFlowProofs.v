(* C17, owner-scoped part - proofs over Models/OwnerFlow.v and the REGENERATED table Generated/OwnerFlow.v.
   (1) semantic theorems over ALL messages, stores and choice lists, by mutual induction on the skeleton;
   (2) decidable obligations on the table by vm_compute (they stop checking when a handler loses its owner
       comparison, feeds an inner handler's signer field from anything but the outer signer, turns a
       signer-keyed lookup into an id lookup, or when a new handler cannot be classified). *)
From Coq Require Import String List Bool Arith.
From Elys Require Import Base.ListFacts Models.OwnerFlow Generated.OwnerFlow.
Import ListNotations.
Open Scope string_scope.

Combined Scheme oflow_ind from ostep_mut, obody_mut.

Lemma In_sremove : forall x n u, In x (sremove n u) <-> In x u /\ x <> n.
Proof.
  intros x n u. unfold sremove. rewrite filter_In, negb_true_iff. destruct (String.eqb_spec x n); intuition congruence.
Qed.

Lemma upd_other : forall A (f : nat -> A) i v j, j <> i -> upd f i v j = f j.
Proof. intros A f i v j H. unfold upd. destruct (Nat.eqb_spec j i); [contradiction|reflexivity]. Qed.

Lemma bind_same : forall r n v, bind r n v n = v.
Proof. intros r n v. unfold bind. rewrite String.eqb_refl. reflexivity. Qed.

Definition post (G : benv -> ostore -> list ch -> Prop) (F : ostore -> list ch -> Prop) (x : result) : Prop :=
  match x with (Go, r, st, chs) => G r st chs | (Fail _, _, st, chs) => F st chs end.

Lemma post_cons G' G F s rest signer msg r st chs :
  post G' F (run_step s signer msg r st chs) ->
  (forall r' st' chs', G' r' st' chs' -> post G F (run_body rest signer msg r' st' chs')) ->
  post G F (run_body (OCons s rest) signer msg r st chs).
Proof.
  intros Hs Hrest. cbn. destruct (run_step s signer msg r st chs) as [[[[|c] r'] st'] chs']; [apply Hrest|]; exact Hs.
Qed.

Lemma run_compare n f signer msg r st chs :
  run_step (OCompare n f) signer msg r st chs = (Go, r, st, chs) /\
    (forall i, r n = Some i -> forall ob, st i = Some ob -> owner_eqb ob (msg f) = true) \/
  run_step (OCompare n f) signer msg r st chs = (Fail Unauthorized, r, st, chs).
Proof.
  cbn. destruct (r n) as [i|]; [destruct (st i) as [ob|] eqn:Es; [destruct (owner_eqb ob (msg f)) eqn:E|]|];
    try (right; reflexivity); left; (split; [reflexivity|]); intros i' Er ob' Ei; congruence.
Qed.

(* A body accepted by the scan never changes an object whose stored owner is not the signer. *)
Section Unchanged.
  Variable st0 : ostore.      (* the store the handler started with *)
  Variable signer : string.
  Variable msg : message.

  Definition protected (i : nat) : Prop := exists o, st0 i = Some o /\ o_owner o <> msg signer.

  Definition keeps (st : ostore) : Prop := forall i, protected i -> st i = st0 i.
  Definition checked (r : benv) (u : list string) : Prop :=
    forall n i, r n = Some i -> ~ In n u -> ~ protected i.

  (* what is claimed of a run that the scan lets through with [u'] left unchecked; of one it refuses, nothing *)
  Definition good (scanned : option (list string)) : result -> Prop :=
    match scanned with
    | Some u' => post (fun r st _ => keeps st /\ checked r u') (fun st _ => keeps st)
    | None => fun _ => True
    end.

  Lemma unprotected : forall st i, keeps st -> (forall o, st i = Some o -> owner_eqb o (msg signer) = true) -> ~ protected i.
  Proof.
    intros st i Hk Ho [o0 [H0 Hne]]. apply Hne, String.eqb_eq, Ho. rewrite (Hk i); [exact H0|]. exists o0. split; assumption.
  Qed.

  Lemma keeps_upd : forall st i v, keeps st -> ~ protected i -> keeps (upd st i v).
  Proof. intros st i v Hk Hp j Hj. rewrite upd_other by (intros ->; exact (Hp Hj)). exact (Hk j Hj). Qed.

  (* a new binding of [n]: the other names keep their status; [n] is unchecked again or bound to nothing protected *)
  Lemma checked_bind : forall r u n v u', checked r u -> incl (sremove n u) u' ->
    match v with Some i => In n u' \/ ~ protected i | None => True end -> checked (bind r n v) u'.
  Proof.
    intros r u n v u' Hc Hu Hv m j Hb Hnin. unfold bind in Hb. destruct (String.eqb_spec m n) as [->|Hne].
    - subst v. destruct Hv as [Hin|Hp]; [contradiction|exact Hp].
    - apply (Hc m j Hb). intros Hin. apply Hnin, Hu, In_sremove. split; assumption.
  Qed.

  Lemma checked_remove : forall r u n, checked r u -> (forall i, r n = Some i -> ~ protected i) -> checked r (sremove n u).
  Proof.
    intros r u n Hc Hn m j Hb Hnin. destruct (String.eqb_spec m n) as [->|Hne]; [exact (Hn j Hb)|].
    apply (Hc m j Hb). intros Hin. apply Hnin, In_sremove. split; assumption.
  Qed.

  Lemma select_good : forall k n w r st chs u u', keeps st -> checked r u -> incl (sremove n u) u' -> (k = KId -> In n u') ->
    good (Some u') (run_step (OSelect k n w) signer msg r st chs).
  Proof.
    intros k n w r st chs u u' Hk Hc Hu Hid. pose proof (fun v => checked_bind r u n v u' Hc Hu) as Hb.
    cbn. destruct chs as [|[ | c | i | | n0 o | i o | n0] chs']; try exact Hk.
    - (* CPick *) destruct (st i) as [o|] eqn:Ei; [|exact Hk]. destruct k.
      + destruct (owner_eqb o (msg signer)) eqn:Eo; [|exact Hk].
        split; [exact Hk|]. apply Hb. right. apply (unprotected st i Hk). congruence.
      + split; [exact Hk|]. apply Hb. left. exact (Hid eq_refl).
    - (* CSkip *) split; [exact Hk|]. apply Hb. exact I.
  Qed.

  Definition Pstep (s : ostep) : Prop :=
    forall r st chs u, keeps st -> checked r u -> good (scan_step signer s u) (run_step s signer msg r st chs).
  Definition Pbody (b : obody) : Prop :=
    forall r st chs u, keeps st -> checked r u -> good (scan_body signer b u) (run_body b signer msg r st chs).

  Lemma unchanged_mut : (forall s, Pstep s) /\ (forall b, Pbody b).
  Proof.
    apply oflow_ind; unfold Pstep, Pbody.
    - (* ORead *) intros w r st chs u Hk Hc. exact (conj Hk Hc).
    - (* OCheck *) intros r st chs u Hk Hc. cbn. destruct chs as [|[] chs']; cbn; auto.
    - (* OSelect *) intros k n w r st chs u Hk Hc.
      destruct k; apply (select_good _ n w r st chs u); auto using incl_refl, incl_tl, in_eq; discriminate.
    - (* OCompare *) intros n f r st chs u Hk Hc.
      destruct (run_compare n f signer msg r st chs) as [[-> Hgo]| ->]; cbn; [|destruct (String.eqb f signer); exact Hk].
      destruct (String.eqb_spec f signer) as [->|_]; (split; [exact Hk|]); [|exact Hc].
      apply checked_remove; [exact Hc|]. intros i Er. exact (unprotected st i Hk (Hgo i Er)).
    - (* OWrite: only with nothing unchecked, so that whatever is selected may be written *)
      intros w what r st chs u Hk Hc. destruct u as [|x u]; [|destruct w; exact I].
      enough (Hw : good (Some []) (run_step (OWrite w what) signer msg r st chs)) by (destruct w; first [exact I|exact Hw]).
      cbn. destruct chs as [|[ | c | i | | n o | i o | n] chs']; cbn; auto.
      + (* CPut *) destruct (r n) as [i|] eqn:Er; cbn; auto.
        split; [|exact Hc]. apply keeps_upd; [exact Hk|]. exact (Hc n i Er (fun H => H)).
      + (* CNew *) destruct (st i) as [o0|] eqn:Ei; cbn; auto.
        split; [|exact Hc]. apply keeps_upd; [exact Hk|]. apply (unprotected st i Hk). congruence.
    - (* OLoop: entered and left with nothing unchecked, which a discarded item does not disturb *)
      intros cached b IH r st chs u Hk Hc. destruct u as [|x u]; [|exact I]. cbn [scan_step is_nil].
      destruct (scan_body signer b []) as [[|x l]|] eqn:Eb; try exact I.
      cbn. destruct chs as [|[ | c | i | | n o | i o | n] chs']; cbn; auto.
      revert r st chs' Hk Hc. induction n as [|n IHn]; intros r st chs' Hk Hc; [cbn; auto|].
      pose proof (IH r st chs' [] Hk Hc) as Hb. rewrite Eb in Hb.
      destruct (run_body b signer msg r st chs') as [[[[|c] r'] st'] chs'']; cbn in Hb.
      + apply IHn; apply Hb.
      + destruct cached; [apply IHn; assumption|exact Hb].
    - (* OInner *) intros hn isg from b IH r st chs u. destruct from; try exact (fun _ _ => I). exact (IH r st chs u).
    - (* ONil *) intros r st chs u Hk Hc. exact (conj Hk Hc).
    - (* OCons *) intros s Hs rest IH r st chs u Hk Hc. specialize (Hs r st chs u Hk Hc). cbn [scan_body].
      destruct (scan_step signer s u) as [u1|]; [|exact I].
      destruct (scan_body signer rest u1) as [u'|] eqn:Er; [|exact I].
      apply (post_cons _ _ _ _ _ _ _ _ _ _ Hs). intros r' st' chs' [Hk' Hc'].
      specialize (IH r' st' chs' u1 Hk' Hc'). rewrite Er in IH. exact IH.
  Qed.

  Lemma good_keeps : forall u' x, good (Some u') x -> keeps (res_store x).
  Proof. intros u' [[[[|c] r] st] chs]; cbn; tauto. Qed.
End Unchanged.

Lemma safe_unchanged : forall h, flow_safe h = true ->
  forall (msg : message) (st : ostore) (chs : list ch) (i : nat) (o : obj),
    st i = Some o -> o_owner o <> msg (of_signer h) ->
    res_store (run_flow h msg st chs) i = Some o.
Proof.
  intros h Hs msg st chs i o Hi Hne. unfold flow_safe in Hs. apply andb_true_iff in Hs. destruct Hs as [_ Hs].
  pose proof (proj2 (unchanged_mut st (of_signer h) msg) (of_body h) (fun _ => None) st chs []) as G.
  destruct (scan_body (of_signer h) (of_body h) []) as [u'|]; [|discriminate].
  unfold run_flow. rewrite (good_keeps _ _ _ _ _ (G (fun _ _ => eq_refl) (fun n j Hn => ltac:(discriminate))) i); [exact Hi|].
  exists o. split; assumption.
Qed.

Lemma pf_tl : forall a st chs, picks_foreign a st chs = true -> picks_foreign a st (tl chs) = true.
Proof.
  intros a st [|[] chs]; cbn; intros H; try exact H; try discriminate. apply andb_true_iff in H. apply H.
Qed.

(* "Compared before anything else": if every object the run picks is foreign, nothing at all is written. *)
Section Strict.
  Variable signer : string.
  Variable msg : message.
  Variable st : ostore.

  Definition still (st' : ostore) (chs : list ch) : Prop := st' = st /\ picks_foreign (msg signer) st chs = true.
  Definition quiet : result -> Prop := post (fun _ => still) still.

  (* up to the comparison of a foreign object only reads and checks are run, and the comparison fails *)
  Lemma await_quiet : forall n b, await_compare signer n b = true ->
    forall r chs i o, r n = Some i -> st i = Some o -> owner_eqb o (msg signer) = false ->
      picks_foreign (msg signer) st chs = true -> quiet (run_body b signer msg r st chs).
  Proof.
    intros n b. induction b as [|s rest IH]; intros Ha r chs i o Hr Hs Ho Hp; [discriminate|].
    destruct s; cbn in Ha; try discriminate.
    - (* ORead *) exact (IH Ha r chs i o Hr Hs Ho Hp).
    - (* OCheck *) apply pf_tl in Hp. cbn. destruct chs as [|[] chs']; try exact (IH Ha r _ i o Hr Hs Ho Hp). exact (conj eq_refl Hp).
    - (* OCompare *) apply andb_true_iff in Ha. destruct Ha as [E1 E2].
      apply String.eqb_eq in E1. apply String.eqb_eq in E2. subst name field.
      cbn. rewrite Hr, Hs, Ho. exact (conj eq_refl Hp).
  Qed.

  Definition Sstep (s : ostep) : Prop :=
    strict_step signer s = true -> forall r chs, picks_foreign (msg signer) st chs = true ->
      quiet (run_step s signer msg r st chs).
  Definition Sbody (b : obody) : Prop :=
    strict_body signer b = true -> forall r chs, picks_foreign (msg signer) st chs = true ->
      quiet (run_body b signer msg r st chs).

  Lemma strict_cons : forall s rest, Sstep s -> Sbody rest -> Sbody (OCons s rest).
  Proof.
    intros s rest Hs IH Hstr r chs Hp.
    assert (Hgen : strict_step signer s = true -> strict_body signer rest = true ->
                   quiet (run_body (OCons s rest) signer msg r st chs)).
    { intros H1 H2. apply (post_cons _ _ _ _ _ _ _ _ _ _ (Hs H1 r chs Hp)). intros r' st' chs' [-> Hp']. exact (IH H2 r' chs' Hp'). }
    destruct s as [w| |[|] name what|n f|w what|cached b|hn isg from b]; try discriminate Hstr;
      try (apply andb_true_iff in Hstr; destruct Hstr as [H1 H2]; exact (Hgen H1 H2)); try exact (Hgen eq_refl Hstr).
    (* OSelect KId: the object picked is foreign, and the rest waits for its comparison *)
    cbn in Hstr. pose proof (pf_tl _ _ _ Hp) as Hp'. cbn. destruct chs as [|[ | c | i | | n o | i o | n] chs']; try exact (conj eq_refl Hp'); [|discriminate Hp].
    cbn in Hp. destruct (st i) as [o|] eqn:Ei; [|discriminate]. apply andb_true_iff in Hp. destruct Hp as [Hf _]. apply negb_true_iff in Hf.
    exact (await_quiet name rest Hstr _ chs' i o (bind_same r name _) Ei Hf Hp').
  Qed.

  Lemma strict_mut : (forall s, Sstep s) /\ (forall b, Sbody b).
  Proof.
    apply oflow_ind; unfold Sstep; try discriminate.
    - (* ORead *) intros w _ r chs Hp. exact (conj eq_refl Hp).
    - (* OCheck *) intros _ r chs Hp. apply pf_tl in Hp. cbn. destruct chs as [|[] chs']; exact (conj eq_refl Hp).
    - (* OLoop *) intros cached b IH Hstr r chs Hp. apply pf_tl in Hp. cbn.
      destruct chs as [|[ | c | i | | n o | i o | n] chs']; try exact (conj eq_refl Hp).
      cbn in Hp. revert r chs' Hp. induction n as [|n IHn]; intros r chs' Hp; [exact (conj eq_refl Hp)|].
      pose proof (IH Hstr r chs' Hp) as Hb.
      destruct (run_body b signer msg r st chs') as [[[[|c] r'] st'] chs'']; destruct Hb as [-> Hp'].
      + apply IHn, Hp'.
      + destruct cached; [apply IHn, Hp'|exact (conj eq_refl Hp')].
    - (* OInner *) intros hn isg from b IH Hstr. cbn in Hstr. destruct from; try discriminate. exact (IH Hstr).
    - (* ONil *) intros _ r chs Hp. exact (conj eq_refl Hp).
    - (* OCons *) intros s Hs rest IH. exact (strict_cons s rest Hs IH).
  Qed.
End Strict.

Lemma strict_nothing_written : forall h, strictly_compared h = true ->
  forall (msg : message) (st : ostore) (chs : list ch),
    picks_foreign (msg (of_signer h)) st chs = true ->
    res_store (run_flow h msg st chs) = st.
Proof.
  intros h Hs msg st chs Hp. unfold strictly_compared in Hs. rewrite !andb_true_iff in Hs. destruct Hs as [[_ Hs] _].
  pose proof (proj2 (strict_mut (of_signer h) msg st) (of_body h) Hs (fun _ => None) chs Hp) as Q. unfold run_flow.
  destruct (run_body (of_body h) (of_signer h) msg (fun _ => None) st chs) as [[[[|c] r'] st'] chs']; apply Q.
Qed.

(* stated as "the list of offenders is empty" so that a failure prints the offenders *)
Lemma misclassified_none : map (fun h => (of_name h, of_reasons h)) (filter (fun h => negb (class_ok h)) oflows) = [].
Proof. vm_compute. reflexivity. Qed.

Lemma all_classified : forallb class_ok oflows = true.
Proof. apply forallb_filter_nil. exact (map_eq_nil _ _ misclassified_none). Qed.

Lemma class_ok_safe : forall h, class_ok h = true -> of_class h <> CE -> is_reviewed h = false -> flow_safe h = true.
Proof.
  intros h Hc Hne Hr. unfold class_ok in Hc. destruct (of_class h); rewrite ?andb_true_iff in Hc; try tauto; congruence.
Qed.

Definition onames (l : list oflow) : list string := map of_name l.

Lemma id_selected_not_strict_none :
  onames (filter (fun h => negb (implb (owner_scoped_class h && has_step is_select_id (of_body h)) (strictly_compared h))) oflows) = [].
Proof. vm_compute. reflexivity. Qed.

Lemma id_selected_strict : forall h, In h oflows -> owner_scoped_class h = true ->
  has_step is_select_id (of_body h) = true -> strictly_compared h = true.
Proof.
  intros h Hin Hc Hid. pose proof (proj2 (forallb_filter_nil _ _) (map_eq_nil _ _ id_selected_not_strict_none)) as H.
  rewrite forallb_forall in H. specialize (H h Hin). cbn beta in H. rewrite Hc, Hid in H. exact H.
Qed.

Lemma oflows_populated :
  negb (Nat.leb (length (filter owner_scoped_class oflows)) 20) && negb (Nat.leb 6 (length reviewed)) = true.
Proof. vm_compute. reflexivity. Qed.
