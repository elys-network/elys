(* One further tie over Generated/ArithC13.v (the others are in Props/ArithTieC13.v). *)
From Coq Require Import ZArith.
From Elys Require Import Models.Chef Generated.ArithC13.
Open Scope Z_scope.

(* the provider's share of the protocol revenue in CollectDEXRevenue / CollectPerpRevenue is this amount *)
Lemma tie_provider_portion : forall (P : params) (a : Z),
  portion_coin (pr_coin P a) (p_prov P) = PortionCoins_amount (p_prov P) (pr_coin P a).
Proof. intros. reflexivity. Qed.
