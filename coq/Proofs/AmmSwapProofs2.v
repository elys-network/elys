(* Proofs about Models/AmmSwap.v (C03), part 2: constant-product pools with equal weights in both directions
   (the bounds in cleared form and in units of the output token, the arithmetic of round trips and split trades),
   the value formulas of oracle pools, the cap on the rebalancing bonus. All statements over unbounded Z. *)
From Coq Require Import ZArith List Lia.
From Elys Require Import Base.Res Base.ResFacts Base.Zdec Models.AmmSwap Proofs.AmmSwapProofs.
Import ListNotations.
Open Scope Z_scope.

Definition cp_eq (p : pool) : Prop :=
  use_oracle p = false /\ w_in p = w_out p /\ 0 < w_in p /\
  0 <= ebal (b_in p) (acc_in p) /\ 0 <= ebal (b_out p) (acc_out p).
Definition rin (p : pool) : Z := ebal (b_in p) (acc_in p).
Definition rout (p : pool) : Z := ebal (b_out p) (acc_out p).

(* Ub P c Bi Bo x out  is the cleared form of  out <= Bo*x/(Bi*P + x) + Bo*c/P^2  (x = a*(P - fee), scaled by P),
   Lb P h Bi Bo x out  that of  out > Bo*x/(Bi*P + x) - Bo*h/P^2 - 1. *)
Definition Ub (P c Bi Bo x out : Z) : Prop :=
  out * (P * P) * (Bi * P + x) <= Bo * (P * P) * x + Bo * (Bi * P + x) * c.
Definition Lb (P h Bi Bo x out : Z) : Prop :=
  Bo * (P * P) * x < out * (P * P) * (Bi * P + x) + Bo * (Bi * P + x) * h + P * P * (Bi * P + x).

Lemma le_div_units q a n c k : 0 < c -> 0 < n -> q * c * n <= a * c + k * c * n -> q <= a / n + k.
Proof.
  intros Hc Hn H. assert (F : c * (n * (q - k)) <= c * a) by lia.
  apply Z.mul_le_mono_pos_l in F; [|exact Hc]. apply Z.div_le_lower_bound in F; [lia|exact Hn].
Qed.

Lemma Ub_div P c Bi Bo x out k :
  0 < P -> 0 < Bi * P + x -> Ub P c Bi Bo x out -> Bo * c <= k * (P * P) ->
  out <= Bo * x / (Bi * P + x) + k.
Proof.
  unfold Ub. intros HP HN U Hk.
  apply (Z.mul_le_mono_nonneg_r _ _ (Bi * P + x)) in Hk; [|lia].
  apply (le_div_units _ _ _ (P * P)); [nia|exact HN|lia].
Qed.

(* K <= R*x/(b + x): the right side falls with b and rises with x (towards R, and K <= R as 0 <= b) *)
Lemma cp_mono K R b x b' x' :
  0 <= R -> 0 <= b -> 0 < b + x -> b' <= b -> x <= x' -> 0 <= x' -> 0 <= b' + x' ->
  K * (b + x) <= R * x -> K * (b' + x') <= R * x'.
Proof.
  intros HR Hb HN Hb' Hx Hx' HN' H.
  assert (H0 : 0 <= R * x') by (apply Z.mul_nonneg_nonneg; assumption).
  destruct (Z_le_gt_dec K 0) as [Kle|Kgt]; [pose proof (Z.mul_nonpos_nonneg K (b' + x') Kle HN'); lia|].
  assert (HRb : 0 <= R * b) by (apply Z.mul_nonneg_nonneg; assumption).
  assert (HD : K <= R) by (apply Z.mul_le_mono_pos_r with (b + x); [exact HN|lia]).
  assert (H1 : K * (b' + x') <= K * (b + x')) by (apply Z.mul_le_mono_nonneg_l; lia).
  assert (H2 : K * (x' - x) <= R * (x' - x)) by (apply Z.mul_le_mono_nonneg_r; lia).
  lia.
Qed.

(* the same without the scale P: in-reserve Bi' <= Bi, amount A with x <= A*P *)
Lemma Ub_unscale P c Bi Bo x out Bi' A :
  0 < P -> 0 <= Bi -> 0 <= Bo -> 0 < Bi * P + x -> Ub P c Bi Bo x out ->
  Bi' <= Bi -> x <= A * P -> 0 <= A -> 0 <= Bi' + A ->
  (out * (P * P) - Bo * c) * (Bi' + A) <= Bo * (P * P) * A.
Proof.
  intros HP HBi HBo HN HU HB Hx HA HS. unfold Ub in HU.
  apply Z.mul_le_mono_pos_r with P; [exact HP|].
  assert (M : (out * (P * P) - Bo * c) * (Bi' * P + A * P) <= Bo * (P * P) * (A * P)); [|lia].
  apply (cp_mono _ _ (Bi * P) x); [nia|nia|exact HN|nia|exact Hx|nia|nia|lia].
Qed.

(* round trip: leg 1 trades a on (Bi1, Bo1) and gets o1; leg 2 trades o1 back on any pool whose in-reserve is at
   least Bo1 - o1 and whose out-reserve is at most Bi1 + a (fees of either leg only make x smaller) *)
Lemma round_trip_arith P c Bi1 Bo1 x1 a o1 Bi2 Bo2 x2 o2 :
  0 < P -> 0 <= c -> 0 <= Bi1 -> 0 <= a -> x1 <= a * P -> 0 < Bi1 * P + x1 ->
  Ub P c Bi1 Bo1 x1 o1 -> 0 < o1 <= Bo1 ->
  0 <= Bi2 -> 0 <= Bo2 -> x2 <= o1 * P -> 0 < Bi2 * P + x2 ->
  Ub P c Bi2 Bo2 x2 o2 ->
  Bo1 - o1 <= Bi2 -> Bo2 <= Bi1 + a ->
  o2 * (P * P) <= a * (P * P) + 2 * (Bi1 + a) * c.
Proof.
  intros HP Hc HBi1 Ha Hx1 HN1 U1 Ho1 HBi2 HBo2 Hx2 HN2 U2 HB2 HB3.
  pose proof (Ub_unscale P c Bi1 Bo1 x1 o1 Bi1 a HP HBi1 ltac:(lia) HN1 U1 (Z.le_refl _) Hx1 Ha ltac:(lia)) as L1.
  pose proof (Ub_unscale P c Bi2 Bo2 x2 o2 (Bo1 - o1) o1 HP HBi2 HBo2 HN2 U2 HB2 Hx2 ltac:(lia) ltac:(lia)) as L2.
  replace (Bo1 - o1 + o1) with Bo1 in L2 by ring.
  assert (HQ : 0 < P * P) by (apply Z.mul_pos_pos; exact HP).
  set (Q := P * P) in *. set (S := Bi1 + a) in *.
  (* (o2*Q - Bo2*c)*Bo1 <= Bo2*Q*o1 <= S*Q*o1 <= Bo1*(Q*a + c*S) *)
  assert (E2 : Bo2 * (Q * o1) <= S * (Q * o1)) by (apply Z.mul_le_mono_nonneg_r; [apply Z.mul_nonneg_nonneg|]; lia).
  assert (E4 : (o2 * Q - Bo2 * c) * Bo1 <= (Q * a + c * S) * Bo1) by lia.
  apply Z.mul_le_mono_pos_r in E4; [|lia].
  assert (HcS : Bo2 * c <= S * c) by (apply Z.mul_le_mono_nonneg_r; lia). lia.
Qed.

(* split: a = a1 + a2 (x = x1 + x2 after the same fee); second piece on (Bi2, Bo - o1) with Bi2*P >= Bi*P + x1 *)
Lemma split_arith P c h Bi Bo x1 x2 o1 o2 o Bi2 :
  0 < P -> 0 <= c -> 0 <= Bi -> 0 <= Bo -> 0 <= x1 -> 0 <= x2 -> 0 < Bi * P + x1 ->
  Ub P c Bi Bo x1 o1 -> 0 <= o1 <= Bo ->
  Bi * P + x1 <= Bi2 * P ->
  Ub P c Bi2 (Bo - o1) x2 o2 ->
  Lb P h Bi Bo (x1 + x2) o ->
  (o1 + o2) * (P * P) < o * (P * P) + P * P + Bo * (h + 2 * c).
Proof.
  intros HP Hc HBi HBo Hx1 Hx2 HM1 U1 Ho1 HB2 U2 L. unfold Ub, Lb in *.
  set (Q := P * P) in *. set (M1 := Bi * P + x1) in *. set (B2 := Bo - o1) in *.
  replace (Bi * P + (x1 + x2)) with (M1 + x2) in L by (unfold M1; ring).
  (* the bound of the second piece also holds with the smaller denominator M1 + x2 <= Bi2*P + x2 *)
  assert (SA : (o2 * Q - B2 * c) * (M1 + x2) <= B2 * Q * x2).
  { apply (cp_mono _ _ (Bi2 * P) x2); [unfold Q, B2; nia|lia..]. }
  assert (S1 : B2 * ((M1 + x2) * c) <= Bo * ((M1 + x2) * c))
    by (apply Z.mul_le_mono_nonneg_r; [apply Z.mul_nonneg_nonneg|unfold B2]; lia).
  assert (S2 : Bo * c * M1 <= Bo * c * (M1 + x2)) by (apply Z.mul_le_mono_nonneg_l; [apply Z.mul_nonneg_nonneg|]; lia).
  apply Z.mul_lt_mono_pos_r with (M1 + x2); [lia|]. unfold B2 in *. lia.
Qed.

(* with y = B_in/(B_in + a') rounded to the nearest 10^-18 the pool pays trunc(B_out*(1 - y)): the exact
   constant-product amount up to the rounding of y multiplied by the out reserve, and one unit of truncation *)
Lemma calc_out_Ub p a fee out slip : cp_eq p -> 0 <= a -> fee <= PREC ->
  calc_out p a fee = Ok (out, slip) ->
  Ub PREC (HALF + 1) (rin p) (rout p) (a * (PREC - fee)) out /\
  Lb PREC HALF (rin p) (rout p) (a * (PREC - fee)) out /\
  0 < rin p * PREC + a * (PREC - fee) /\ 0 < out <= rout p.
Proof.
  intros (Hno & Hw & Hwpos & HBi & HBo) Ha Hf H. pose proof PREC_pos as HP.
  destruct (calc_out_inv p a fee out slip Hno H) as (HN & _ & y & Hy & Ho & Hopos).
  rewrite Hw, dquo_self in Hy by lia. apply pow_one in Hy. destruct Hy as [Ey Hypos].
  unfold Ub, Lb, rin, rout.
  set (Bi := ebal (b_in p) (acc_in p)) in *. set (Bo := ebal (b_out p) (acc_out p)) in *.
  set (x := a * (PREC - fee)) in *. set (N := Bi * PREC + x) in *.
  assert (Hx : 0 <= x) by (unfold x; nia).
  assert (HA : 0 <= Bi * PREC <= N) by (unfold N; nia).
  destruct (dquo_le_one (Bi * PREC) N HA HN) as [_ Hy1].
  destruct (dquo_bounds (Bi * PREC) N (proj1 HA) HN) as (_ & Q1 & Q2). rewrite <- Ey in *.
  destruct (trunc_int_bounds (Bo * (PREC - y))) as (_ & T1 & T2); [nia|]. rewrite <- Ho in *.
  assert (HPN : 0 < PREC * N) by nia.
  assert (S1 : out * PREC * (PREC * N) <= Bo * (PREC - y) * (PREC * N)) by (apply Z.mul_le_mono_nonneg_r; lia).
  assert (S2 : (Bo * (PREC - y) - PREC) * (PREC * N) < out * PREC * (PREC * N)) by (apply Z.mul_lt_mono_pos_r; lia).
  assert (S3 : Bo * (y * PREC * N) <= Bo * (Bi * PREC * PREC * PREC + HALF * N)) by (apply Z.mul_le_mono_nonneg_l; lia).
  assert (S4 : Bo * (Bi * PREC * PREC * PREC - N - HALF * N) <= Bo * (y * PREC * N)) by (apply Z.mul_le_mono_nonneg_l; lia).
  assert (S5 : Bo * (PREC - y) <= Bo * PREC) by (apply Z.mul_le_mono_nonneg_l; lia).
  assert (S6 : out <= Bo) by (apply Z.mul_le_mono_pos_r with PREC; [exact HP|clear - T2 S5; lia]).
  clear - S1 S2 S3 S4 S6 HN Hopos. unfold N in *. repeat split; lia.
Qed.

Lemma calc_out_units p a fee out slip k : cp_eq p -> 0 <= a -> fee <= PREC ->
  calc_out p a fee = Ok (out, slip) ->
  rout p * (HALF + 1) <= k * (PREC * PREC) ->
  out <= (rout p * (a * (PREC - fee))) / (rin p * PREC + a * (PREC - fee)) + k.
Proof.
  intros Hp Ha Hf H Hk. destruct (calc_out_Ub p a fee out slip Hp Ha Hf H) as (U & _ & HN & _).
  exact (Ub_div _ _ _ _ _ _ _ PREC_pos HN U Hk).
Qed.

(* a k that always is enough in calc_out_units *)
Lemma units_floor B : 0 <= B -> B * (HALF + 1) <= (B / (2 * PREC) + B / (PREC * PREC) + 2) * (PREC * PREC).
Proof.
  intros HB. pose proof PREC_pos as HP. pose proof HALF_PREC as HH.
  pose proof (Z.mul_succ_div_gt B (2 * PREC) ltac:(lia)) as E1.
  pose proof (Z.mul_succ_div_gt B (PREC * PREC) ltac:(nia)) as E2.
  set (s1 := B / (2 * PREC)) in *. set (s2 := B / (PREC * PREC)) in *.
  assert (B * HALF <= 2 * PREC * Z.succ s1 * HALF) by (apply Z.mul_le_mono_nonneg_r; lia).
  replace (2 * PREC * Z.succ s1 * HALF) with (Z.succ s1 * (PREC * PREC)) in * by (rewrite <- HH; ring).
  lia.
Qed.

Section EqualWeightIn.
  Variable p : pool.
  Variables o fee inn slip : Z.
  Hypothesis Hno : use_oracle p = false.
  Hypothesis Hw : w_in p = w_out p.
  Hypothesis Ho : 0 <= o.
  Let Bi := ebal (b_in p) (acc_in p).
  Let Bo := ebal (b_out p) (acc_out p).
  Hypothesis HBi : 0 <= Bi.
  Hypothesis Hcalc : calc_in p o fee = Ok (inn, slip).
  Let R := Bo - o.

  (* the trader never pays less than the exact constant-product amount (grossed up by the fee) minus the
     rounding of y = B_out/(B_out - o) to the nearest 10^-18 multiplied by the in reserve *)
  Lemma calc_in_equal_lower :
    0 < R /\
    Bi * o * (PREC * PREC * PREC)
      < inn * (PREC * PREC) * (PREC - fee) * R + Bi * R * PREC * (1 + HALF) + R * (PREC - fee) * (1 + HALF).
  Proof.
    pose proof PREC_pos as HP.
    destruct (calc_in_inv p o fee inn slip Hno Hcalc) as (HRP & Hwi & Hfee & y & Hy & Hinn & _). fold Bi Bo in HRP, Hy, Hinn.
    rewrite <- Hw, dquo_self in Hy by exact Hwi. apply pow_one in Hy. destruct Hy as [Ey _].
    replace (Bo * PREC - o * PREC) with (R * PREC) in * by (unfold R; ring).
    assert (HR : 0 < R) by nia. split; [exact HR|].
    assert (HBo : 0 <= Bo * PREC) by (unfold R in HR; nia).
    destruct (dquo_bounds (Bo * PREC) (R * PREC) HBo HRP) as (_ & Q1 & _).
    pose proof (dquo_ge_one (Bo * PREC) (R * PREC) ltac:(unfold R in *; lia)) as Hyge. rewrite <- Ey in *.
    assert (Htin : 0 <= Bi * (y - PREC)) by nia.
    assert (Hf : 0 < PREC - fee) by lia.
    destruct (dquo_bounds (Bi * (y - PREC)) (PREC - fee) Htin Hf) as (T0 & T1 & _).
    pose proof (dceil_trunc _ T0) as C. rewrite <- Hinn in C.
    set (P := PREC) in *. set (H := HALF) in *. set (f := P - fee) in *.
    set (tin := Bi * (y - P)) in *. set (tbf := dquo tin f) in *.
    (* A3: Bi*(o*P^3 - R*P*(1+H)) <= tin*R*P^2 from the rounding of y *)
    assert (A3 : Bi * (o * (P * P * P) - R * P * (1 + H)) <= Bi * ((y - P) * R * (P * P))).
    { apply Z.mul_le_mono_nonneg_l; [exact HBi|]. unfold R in *. lia. }
    (* A5: inn*P*P*f >= tbf*P*f > tin*P^2 - f*(1+H), times R *)
    assert (M : tbf * (P * f) <= inn * P * (P * f)) by (apply Z.mul_le_mono_nonneg_r; [apply Z.mul_nonneg_nonneg; lia|exact C]).
    assert (A5 : (tin * (P * P) - f * (1 + H)) * R < inn * (P * P) * f * R)
      by (apply Z.mul_lt_mono_pos_r; [exact HR|clear - T1 M; lia]).
    unfold tin in A5. clear - A3 A5. lia.
  Qed.

  (* in units: exact amount B_in*o/((B_out-o)(1-fee)) < in + k whenever the two rounding terms are at most k *)
  Lemma calc_in_equal_units k :
    Bi * PREC * (1 + HALF) + (PREC - fee) * (1 + HALF) <= k * (PREC * PREC * (PREC - fee)) ->
    Bi * o * PREC < (inn + k) * (R * (PREC - fee)).
  Proof.
    intros Hk. pose proof PREC_pos as HP. destruct calc_in_equal_lower as [HR L].
    set (P := PREC) in *. set (H := HALF) in *. set (f := P - fee) in *.
    assert (X : (Bi * P * (1 + H) + f * (1 + H)) * R <= k * (P * P * f) * R)
      by (apply Z.mul_le_mono_nonneg_r; lia).
    assert (F : (Bi * o * P) * (P * P) < ((inn + k) * (R * f)) * (P * P)) by lia.
    apply Z.mul_lt_mono_pos_r in F; [exact F|nia].
  Qed.
End EqualWeightIn.

(* a k that always is enough in calc_in_equal_units *)
Lemma in_units_floor B f : 0 <= B -> 0 < f <= PREC ->
  B * PREC * (1 + HALF) + f * (1 + HALF) <= (B / f + 2) * (PREC * PREC * f).
Proof.
  intros HB Hf. pose proof PREC_pos as HP. pose proof HALF_PREC as HH.
  pose proof (Z.mul_succ_div_gt B f ltac:(lia)) as E.
  assert (0 <= B / f) by (apply Z.div_pos; lia). set (s := B / f) in *.
  assert (X1 : B * (PREC * PREC) <= f * Z.succ s * (PREC * PREC)) by (apply Z.mul_le_mono_nonneg_r; nia).
  assert (X2 : B * PREC * (1 + HALF) <= B * PREC * PREC) by (apply Z.mul_le_mono_nonneg_l; nia).
  assert (X3 : f * (1 + HALF) <= f * (PREC * PREC)) by (apply Z.mul_le_mono_nonneg_l; nia).
  lia.
Qed.

(* cp11 W_R W_R is the pool on which the one-unit allowance is exceeded (reserves above 2*10^18) *)
Definition cp11 (bi bo : Z) : pool := mkPool bi bo 1 1 0 0 false 0 0 0 0.
Definition W_R : Z := 3000000000000000000000.   (* 3*10^21 base units = 3000 tokens of an 18-decimals asset *)

Lemma given_in_slippage_nonneg r pi po b s : given_in_slippage r pi po b = Ok s -> 0 <= s.
Proof.
  unfold given_in_slippage. intros H. apply bind_chk in H. apply bind_cquo in H.
  apply bind_chk in H. injection H as <-. destruct (Z.ltb_spec (dquo (dmul (r * PREC) pi) po - b * PREC) 0); lia.
Qed.

Lemma given_out_slippage_nonneg r pi po b s : given_out_slippage r pi po b = Ok s -> 0 <= s.
Proof.
  unfold given_out_slippage. intros H. apply bind_chk in H. apply bind_cquo in H.
  apply bind_chk in H. injection H as <-. destruct (Z.ltb_spec (b * PREC - dquo (dmul (r * PREC) po) pi) 0); lia.
Qed.

(* exact-in on an oracle pool: with slippage amount >= 0, external-liquidity ratio >= 0, weight-breaking fee in
   [0,1] and swap fee >= 0 (the code refuses a fee >= 1): the amount paid out, valued at the oracle prices, is at most
   the value paid in plus half of 10^-18 of one out-token (the rounding of the price quotient) *)
Lemma oracle_out_value a pi po ratio slip wbf fee out oo :
  0 <= a -> 0 <= pi -> 0 < po -> 0 <= ratio -> 0 <= slip -> 0 <= wbf <= PREC -> 0 <= fee ->
  oracle_out a pi po ratio slip wbf fee = Ok (out, oo) ->
  out * po * (PREC * PREC) <= a * pi * (PREC * PREC) + HALF * po /\ out * PREC <= oo.
Proof.
  intros Ha Hpi Hpo Hr Hs Hw Hf H. unfold oracle_out in H. pose proof PREC_pos as HP.
  apply bind_chk in H. rewrite dmul_int_l in H. apply bind_cquo in H.
  do 2 apply bind_chk in H.
  destruct (Z.leb_spec ONE fee); [discriminate|]. unfold ONE in *. do 4 apply bind_chk in H.
  assert (Hm : 0 <= a * pi) by nia.
  destruct (dquo_bounds (a * pi) po Hm Hpo) as (Q0 & _ & Q2). pose proof (dmul_nonneg slip ratio Hs Hr).
  remember (dquo (a * pi) po) as O. remember (O - dmul slip ratio) as after.
  remember (dmul (dmul after (PREC - wbf)) (PREC - fee)) as x2.
  assert (E : out = trunc_int x2 /\ oo = O) by (split; congruence). destruct E as [-> ->]. clear H.
  assert (Hafter : after <= O) by lia.
  assert (Hx : trunc_int x2 * PREC <= O).
  { destruct (Z_le_gt_dec 0 after) as [Hp|Hn].
    - destruct (dmul_le_l after (PREC - wbf)) as [B0 B1]; [lia..|].
      destruct (dmul_le_l (dmul after (PREC - wbf)) (PREC - fee)) as [B2 B3]; [lia..|].
      rewrite <- Heqx2 in *. destruct (trunc_int_bounds x2 B2) as (_ & _ & T). lia.
    - pose proof (dmul_nonpos_l after (PREC - wbf) ltac:(lia) ltac:(lia)).
      pose proof (dmul_nonpos_l (dmul after (PREC - wbf)) (PREC - fee) ltac:(lia) ltac:(lia)).
      rewrite <- Heqx2 in *. pose proof (trunc_int_nonpos x2). nia. }
  split; [|exact Hx].
  assert (X : trunc_int x2 * PREC * (PREC * po) <= O * (PREC * po)) by (apply Z.mul_le_mono_nonneg_r; nia).
  lia.
Qed.

(* exact-out on an oracle pool: the amount charged, valued at the oracle prices, is at least the value received
   minus (1/2 + 10^-18) * 10^-18 of one in-token *)
Lemma oracle_in_value o pi po ratio slip wbf fee inn oi :
  0 <= o -> 0 < pi -> 0 <= po -> 0 <= ratio -> 0 <= slip -> 0 <= wbf < PREC -> 0 <= fee ->
  oracle_in o pi po ratio slip wbf fee = Ok (inn, oi) ->
  o * po * (PREC * PREC) < inn * pi * (PREC * PREC) + (1 + HALF) * pi /\ oi <= inn * PREC.
Proof.
  intros Ho Hpi Hpo Hr Hs Hw Hf H. unfold oracle_in in H. pose proof PREC_pos as HP.
  apply bind_chk in H. rewrite dmul_int_l in H. apply bind_cquo in H.
  do 2 apply bind_chk in H.
  destruct (Z.leb_spec ONE fee); [discriminate|]. unfold ONE in *. do 2 apply bind_chk in H.
  do 2 apply bind_cquo in H. apply bind_cceil in H.
  assert (Hm : 0 <= o * po) by nia.
  destruct (dquo_bounds (o * po) pi Hm Hpi) as (Q0 & Q1 & _). pose proof (dmul_nonneg slip ratio Hs Hr).
  remember (dquo (o * po) pi) as I. remember (I + dmul slip ratio) as after.
  pose proof (dquo_ge_l after (PREC - wbf) ltac:(lia) ltac:(lia)) as B1.
  pose proof (charge_ge (dquo after (PREC - wbf)) (PREC - fee) ltac:(lia) ltac:(lia)) as B2.
  assert (E : inn = trunc_int (dceil (dquo (dquo after (PREC - wbf)) (PREC - fee))) /\ oi = I) by (split; congruence).
  destruct E as [-> ->]. clear H. set (inn := trunc_int _) in *.
  assert (Hx : I <= inn * PREC) by lia.
  split; [|exact Hx].
  assert (X : I * (PREC * pi) <= inn * PREC * (PREC * pi)) by (apply Z.mul_le_mono_nonneg_r; nia).
  lia.
Qed.

(* the whole oracle swap (resize, balancer slippage of the resized trade, value formula) *)
Lemma oracle_swap_out_value p a ratio wbf fee out s oo :
  0 <= a -> 0 <= ratio -> 0 <= wbf <= PREC -> 0 <= fee -> 0 <= price_in p -> 0 <= price_out p ->
  oracle_swap_out p a ratio wbf fee = Ok (out, s, oo) ->
  0 <= s /\ out * price_out p * (PREC * PREC) <= a * price_in p * (PREC * PREC) + HALF * price_out p.
Proof.
  intros Ha Hr Hw Hf Hpi Hpo H. unfold oracle_swap_out in H.
  destruct (price_in p =? 0); [discriminate|].
  destruct (Z.eqb_spec (price_out p) 0); [discriminate|].
  destruct (ratio =? 0); [discriminate|].
  apply bind_ok in H. destruct H as (r & _ & H).
  apply bind_ok in H. destruct H as ([bo sl] & _ & H).
  apply bind_ok in H. destruct H as (s0 & Hs & H).
  apply bind_ok in H. destruct H as ([out0 oo0] & Ho & H). inversion H; subst.
  apply given_in_slippage_nonneg in Hs. split; [exact Hs|].
  exact (proj1 (oracle_out_value a (price_in p) (price_out p) ratio s wbf fee out oo Ha Hpi ltac:(lia) Hr Hs Hw Hf Ho)).
Qed.

Lemma oracle_swap_in_value p o ratio wbf fee inn s oi :
  0 <= o -> 0 <= ratio -> 0 <= wbf < PREC -> 0 <= fee -> 0 <= price_in p -> 0 <= price_out p ->
  oracle_swap_in p o ratio wbf fee = Ok (inn, s, oi) ->
  0 <= s /\ o * price_out p * (PREC * PREC) < inn * price_in p * (PREC * PREC) + (1 + HALF) * price_in p.
Proof.
  intros Ho Hr Hw Hf Hpi Hpo H. unfold oracle_swap_in in H.
  destruct (Z.eqb_spec (price_in p) 0); [discriminate|].
  destruct (price_out p =? 0); [discriminate|].
  destruct (ratio =? 0); [discriminate|].
  apply bind_ok in H. destruct H as (r & _ & H).
  apply bind_ok in H. destruct H as ([bi sl] & _ & H).
  apply bind_ok in H. destruct H as (s0 & Hs & H).
  apply bind_ok in H. destruct H as ([in0 oi0] & Hi & H). inversion H; subst.
  apply given_out_slippage_nonneg in Hs. split; [exact Hs|].
  exact (proj1 (oracle_in_value o (price_in p) (price_out p) ratio s wbf fee inn oi Ho ltac:(lia) Hpo Hr Hs Hw Hf Hi)).
Qed.

(* the rebalancing bonus of UpdatePoolForSwap, paid from the treasury *)
Lemma bonus_capped use_orc base bonus treasury b :
  bonus_paid use_orc base bonus treasury = Ok b ->
  0 <= b /\ (0 < b -> b <= treasury /\ use_orc = true /\ 0 < bonus /\ b * PREC <= base * bonus).
Proof.
  unfold bonus_paid. intros H.
  destruct use_orc; [|injection H as <-; lia]. destruct (Z.ltb_spec 0 bonus); [|injection H as <-; lia].
  cbn [andb] in H. apply bind_chk in H. rewrite dmul_int_l in H. injection H as <-.
  pose proof (trunc_int_pos_le (base * bonus)) as T. set (t := trunc_int (base * bonus)) in *.
  assert (M : forall b, 0 < b <= t -> b * PREC <= base * bonus).
  { intros b Hb. specialize (T ltac:(lia)). pose proof PREC_pos. nia. }
  destruct (Z.ltb_spec treasury t); [destruct (Z.ltb_spec 0 treasury)|destruct (Z.ltb_spec 0 t)];
    (split; [lia|]); intros Hb; repeat split; try apply M; lia.
Qed.
