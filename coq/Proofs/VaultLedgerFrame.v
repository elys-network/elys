(* C06, frame: which debt records a step of Models/VaultLedger.v can touch. *)
From Coq Require Import ZArith List.
From Elys Require Import Base.Res Base.ResFacts Base.Fn Models.VaultLedger Proofs.VaultLedgerProofs.
Import ListNotations.
Open Scope Z_scope.

Definition borrower_of (o : vop) : option nat :=
  match o with VBorrow k _ _ | VRepay k _ _ | VAccrue k _ => Some k | _ => None end.

Definition same_record (v v' : vault) (k : nat) : Prop :=
  v_b v' k = v_b v k /\ v_s v' k = v_s v k /\ v_p v' k = v_p v k.

Lemma put_other v tv cash k b s p k' : k' <> k -> same_record v (put v tv cash k b s p) k'.
Proof. intros H. unfold same_record, put. cbn. rewrite !upd_other by exact H. repeat split. Qed.
Lemma del_other v tv cash k k' : k' <> k -> same_record v (del v tv cash k) k'.
Proof. intros H. unfold same_record, del. cbn. rewrite !upd_other by exact H. repeat split. Qed.

Lemma same_record_refl v k : same_record v v k.
Proof. unfold same_record. repeat split. Qed.
Lemma same_record_trans v1 v2 v3 k : same_record v1 v2 k -> same_record v2 v3 k -> same_record v1 v3 k.
Proof. unfold same_record. intros (A & B & C) (D & E & F). rewrite D, E, F. repeat split; assumption. Qed.

Lemma vstep_other_borrowers v o v' : vstep v o = Ok v' ->
  forall k', borrower_of o <> Some k' -> same_record v v' k'.
Proof.
  intros H k' Hk. apply vstep_ok in H. destruct o as [a|p|k a i|k a i|k i|a|a]; cbn [borrower_of] in Hk.
  - destruct H as (_ & ->). exact (same_record_refl v k').
  - destruct H as (_ & ->). exact (same_record_refl v k').
  - destruct H as (_ & _ & _ & ->). apply put_other. congruence.
  - destruct H as (_ & _ & H). cbv zeta in H. destruct H as (_ & ->).
    destruct (_ =? 0); [apply del_other|apply put_other]; congruence.
  - destruct H as (_ & ->). apply put_other. congruence.
  - destruct H as (_ & ->). exact (same_record_refl v k').
  - destruct H.
Qed.

Lemma vrun_other_borrowers h : forall v k', (forall l o, In l h -> In o l -> borrower_of o <> Some k') ->
  same_record v (vrun vstep v h) k'.
Proof.
  intros v k' Hk. apply Forall_Forall_in in Hk. revert v Hk.
  apply (txs_rel (fun v v' => same_record v v' k') (fun o => borrower_of o <> Some k'))
    with (step := vstep) (steps := vsteps vstep); auto.
  - intros v. apply same_record_refl.
  - intros v1 v2 v3. apply same_record_trans.
  - intros v o v' Ho H. exact (vstep_other_borrowers v o v' H k' Ho).
Qed.
