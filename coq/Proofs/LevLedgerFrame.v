(* C08, exactness and frame: what one step of Models/LevLedger.v changes and what it leaves alone, then over histories. *)
From Coq Require Import ZArith List Lia.
From Elys Require Import Base.Res Base.ResFacts Base.Fn Models.SumLedger Proofs.SumLedgerProofs Models.LevLedger Proofs.LevLedgerProofs.
Import ListNotations.
Open Scope Z_scope.

Definition pos_key (o : lop) : nat := match o with LOpen k _ | LClose k _ => k end.
Definition pos_delta (o : lop) : Z := match o with LOpen _ a => a | LClose _ a => - a end.

Lemma lstep_exact s o s' : lstep s o = Ok s' ->
  total (l_sl s') = total (l_sl s) + pos_delta o /\
  l_comm s' (pos_key o) = l_comm s (pos_key o) + pos_delta o /\
  (forall k, k <> pos_key o -> parts (l_sl s') k = parts (l_sl s) k /\ l_comm s' k = l_comm s k).
Proof.
  destruct o as [k a|k a]; cbn [pos_key pos_delta]; intros E.
  - cbn [lstep] in E. apply bind_ok in E as (t & E1 & E). injection E as <-. cbn [l_sl l_comm].
    destruct (scredit_ok _ _ _ _ E1) as (_ & T & _ & _ & _ & P3). rewrite upd_same.
    repeat split; auto. apply upd_other. assumption.
  - apply lclose_iff in E as (_ & _ & _ & ->). cbn [l_sl l_comm parts total]. rewrite upd_same.
    repeat split; try lia; apply upd_other; assumption.
Qed.

Lemma lclose_beyond_committed_refused s k a : l_comm s k < a -> lstep s (LClose k a) = Err E_negative.
Proof. intros H. cbn [lstep]. apply Z.ltb_lt in H. rewrite H. reflexivity. Qed.

Lemma lrun_other_positions h : forall s k, (forall o, In o h -> pos_key o <> k) ->
  parts (l_sl (lrun s h)) k = parts (l_sl s) k /\ l_comm (lrun s h) k = l_comm s k.
Proof.
  intros s k Hk. apply Forall_forall in Hk. revert s Hk.
  apply (execs_rel (fun s s' => parts (l_sl s') k = parts (l_sl s) k /\ l_comm s' k = l_comm s k) (fun o => pos_key o <> k)); auto.
  - intros s1 s2 s3 [<- <-] H. exact H.
  - intros s o s' Ho H. apply (lstep_exact s o s' H). congruence.
Qed.
