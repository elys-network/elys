(* Proofs about Models/CloseGuard.v (C10). Positions are compared up to [pequiv]: the same [core] and the same
   triggers, so that the interest and funding a perpetual liquidation check settles into a record does not count
   as a change. Every forced item has one normal form ([forced_step_eq]): settle, then close under the guard.
   A list of items is treated once ([forced_run_rel]); positions and balances are its two instances.
   At the end the open step, before and since fix: ba85cca. *)
From Coq Require Import ZArith List Bool Lia.
From Elys Require Import Base.Res Models.CloseGuard.
Import ListNotations.
Open Scope Z_scope.

Lemma pset_cases m o i v o' i' :
  (o' = o /\ i' = i /\ pset m o i v o' i' = v) \/ ((o' <> o \/ i' <> i) /\ pset m o i v o' i' = m o' i').
Proof. unfold pset. destruct (Z.eqb_spec o' o), (Z.eqb_spec i' i); cbn; auto. Qed.

Lemma pay_all_other_owner l : forall f o o' d', o' <> o -> pay_all f o l o' d' = f o' d'.
Proof.
  induction l as [|[d a] r IH]; intros f o o' d' H; cbn; [reflexivity|].
  rewrite IH by exact H. unfold fadd. destruct (Z.eqb_spec o' o); [contradiction|reflexivity].
Qed.

Lemma pm_store m s o i v m' o' i' :
  (m' = m /\ o' = o /\ i' = i /\ pm m' (with_pm m s (pset (pm m s) o i v)) o' i' = v) \/
  ((m' <> m \/ o' <> o \/ i' <> i) /\ pm m' (with_pm m s (pset (pm m s) o i v)) o' i' = pm m' s o' i').
Proof.
  destruct m, m'; cbn [pm with_pm st_lev st_perp]; try (right; split; [left; discriminate|reflexivity]).
  - destruct (pset_cases (st_lev s) o i v o' i') as [(-> & -> & H)|[N H]]; auto.
  - destruct (pset_cases (st_perp s) o i v o' i') as [(-> & -> & H)|[N H]]; auto.
Qed.

Lemma pm_store_same m s o i v f : pm m (with_funds (with_pm m s (pset (pm m s) o i v)) f) o i = v.
Proof. destruct m; cbn; unfold pset; rewrite !Z.eqb_refl; reflexivity. Qed.

Lemma pm_store_other m s o i v f m' o' i' :
  m' <> m \/ o' <> o \/ i' <> i -> pm m' (with_funds (with_pm m s (pset (pm m s) o i v)) f) o' i' = pm m' s o' i'.
Proof.
  intros Hk. destruct (pm_store m s o i v m' o' i') as [(-> & -> & -> & _)|[_ E]]; [|destruct m'; exact E].
  destruct Hk as [N|[N|N]]; contradiction N; reflexivity.
Qed.

Definition pequiv (a b : option pos) : Prop :=
  match a, b with
  | None, None => True
  | Some p, Some q => core p = core q /\ trig p = trig q
  | _, _ => False
  end.

Lemma pequiv_refl a : pequiv a a.
Proof. destruct a; cbn; auto. Qed.

Lemma pequiv_trans a b c : pequiv a b -> pequiv b c -> pequiv a c.
Proof. destruct a, b, c; cbn; try tauto. intros [-> ->] [-> ->]. auto. Qed.

Lemma pequiv_some a q : pequiv a (Some q) -> exists p, a = Some p /\ core p = core q /\ trig p = trig q.
Proof. destruct a as [p|]; cbn; [eauto|tauto]. Qed.

Definition core_at (m : pmap) (o i : Z) : option (Z * Z * Z) := option_map core (m o i).
Definition trig_at (m : pmap) (o i : Z) : option (option Z * option Z * bool) := option_map trig (m o i).

Lemma pequiv_at m m' o i : pequiv (m o i) (m' o i) -> core_at m o i = core_at m' o i /\ trig_at m o i = trig_at m' o i.
Proof. unfold core_at, trig_at. destruct (m o i), (m' o i); cbn; try tauto. intros [-> ->]. auto. Qed.

Lemma do_close_pos m s o i c m' o' i' :
  pm m' (do_close m s o i c) o' i' = pm m' s o' i' \/
  (m' = m /\ o' = o /\ i' = i /\ pm m' (do_close m s o i c) o' i' = None).
Proof.
  destruct c as [pay|pay]; [|left; destruct m; reflexivity].
  destruct (pm_store m s o i None m' o' i') as [H|[_ H]]; [right|left]; (destruct m'; exact H).
Qed.

Lemma do_close_sf m s o i c m' : sf m' (do_close m s o i c) = sf m' s.
Proof. destruct c, m, m'; reflexivity. Qed.

Lemma do_close_funds m s o i c o' d' : o' <> o -> st_funds (do_close m s o i c) o' d' = st_funds s o' d'.
Proof.
  intros H. destruct c; [|destruct m; reflexivity].
  cbn. rewrite pay_all_other_owner by exact H. destruct m; reflexivity.
Qed.

(* the state in which the guard's outcome is applied: a perpetual liquidation check has settled interest and funding
   into the record (size and accrual move together); every other kind has touched nothing *)
Definition settle (s : state) (k : kind) (it : item) (p : pos) : state :=
  match k, i_settle it with
  | KPerpLiq, Some d =>
      with_pm MPerp s (pset (st_perp s) (i_owner it) (i_id it)
        (Some (mkPos (p_size p + d) (p_accr p + d) (p_coll p) (p_princ p) (p_sl p) (p_tp p) (p_long p))))
  | _, _ => s
  end.

Lemma forced_step_eq s k it :
  forced_step s (k, it) =
  match pm (kmod k) s (i_owner it) (i_id it) with
  | None => s
  | Some p => if guard_of k (sf (kmod k) s) (trig p) it
              then do_close (kmod k) (settle s k it p) (i_owner it) (i_id it) (i_close it) else settle s k it p
  end.
Proof.
  unfold forced_step, settle. destruct (pm (kmod k) s (i_owner it) (i_id it)); [|reflexivity].
  destruct k; try reflexivity. cbn. destruct (i_settle it); reflexivity.
Qed.

Lemma settle_pos s k it p m o i :
  pm (kmod k) s (i_owner it) (i_id it) = Some p -> pequiv (pm m s o i) (pm m (settle s k it p) o i).
Proof.
  intros E. unfold settle. destruct k; try apply pequiv_refl. destruct (i_settle it) as [d|]; [|apply pequiv_refl].
  destruct (pm_store MPerp s (i_owner it) (i_id it)
    (Some (mkPos (p_size p + d) (p_accr p + d) (p_coll p) (p_princ p) (p_sl p) (p_tp p) (p_long p))) m o i)
    as [(-> & -> & -> & H)|[_ H]]; cbn [pm kmod] in *; rewrite H; [|apply pequiv_refl].
  rewrite E. split; [unfold core; cbn; f_equal; f_equal; lia|reflexivity].
Qed.

Lemma settle_sf s k it p m : sf m (settle s k it p) = sf m s.
Proof. unfold settle. destruct k, (i_settle it), m; reflexivity. Qed.

Lemma settle_funds s k it p : st_funds (settle s k it p) = st_funds s.
Proof. unfold settle. destruct k, (i_settle it); reflexivity. Qed.

Lemma forced_step_sf s x m : sf m (forced_step s x) = sf m s.
Proof.
  destruct x as [k it]. rewrite forced_step_eq. destruct (pm _ s _ _) as [p|]; [|reflexivity].
  destruct (guard_of _ _ _ _); rewrite ?do_close_sf; apply settle_sf.
Qed.

Definition fires (s : state) (k : kind) (it : item) : Prop :=
  exists p, pm (kmod k) s (i_owner it) (i_id it) = Some p /\ guard_of k (sf (kmod k) s) (trig p) it = true.

Lemma forced_step_pos s k it m o i :
  pequiv (pm m s o i) (pm m (forced_step s (k, it)) o i) \/
  (kmod k = m /\ i_owner it = o /\ i_id it = i) /\ fires s k it /\ pm m (forced_step s (k, it)) o i = None.
Proof.
  unfold fires. rewrite forced_step_eq.
  destruct (pm (kmod k) s (i_owner it) (i_id it)) as [p|] eqn:E; [|left; apply pequiv_refl].
  pose proof (settle_pos s k it p m o i E) as Hs.
  destruct (guard_of k (sf (kmod k) s) (trig p) it) eqn:Hg; [|left; exact Hs].
  destruct (do_close_pos (kmod k) (settle s k it p) (i_owner it) (i_id it) (i_close it) m o i) as [H|(-> & -> & -> & H)].
  - left. rewrite H. exact Hs.
  - right. split; [auto|]. split; [exists p; auto|exact H].
Qed.

Lemma forced_step_funds s k it o d :
  st_funds (forced_step s (k, it)) o d = st_funds s o d \/ i_owner it = o /\ fires s k it.
Proof.
  unfold fires. rewrite forced_step_eq.
  destruct (pm (kmod k) s (i_owner it) (i_id it)) as [p|] eqn:E; [|left; reflexivity].
  destruct (guard_of k (sf (kmod k) s) (trig p) it) eqn:Hg; [|left; rewrite settle_funds; reflexivity].
  destruct (Z.eq_dec o (i_owner it)) as [->|Ho]; [right; eauto|].
  left. rewrite do_close_funds, settle_funds by exact Ho. reflexivity.
Qed.

(* an item that fires after another item fired before it: that item left the triggers and the safety factor alone *)
Lemma fires_back s x k it : fires (forced_step s x) k it -> fires s k it.
Proof.
  destruct x as [k0 it0]. intros (p1 & Hp & Hg). rewrite forced_step_sf in Hg.
  destruct (forced_step_pos s k0 it0 (kmod k) (i_owner it) (i_id it)) as [Hs|(_ & _ & Hn)]; [|congruence].
  rewrite Hp in Hs. destruct (pequiv_some _ _ Hs) as (p & E & _ & Ht). rewrite <- Ht in Hg. exists p. auto.
Qed.

Lemma forced_run_sf l : forall s m, sf m (forced_run s l) = sf m s.
Proof.
  unfold forced_run. induction l as [|x r IH]; intros s m; cbn; [reflexivity|]. rewrite IH. apply forced_step_sf.
Qed.

Section Run.
  Context (R : state -> state -> Prop) (K : kind -> item -> Prop).
  Hypothesis R_refl : forall s, R s s.
  Hypothesis R_trans : forall s1 s2 s3, R s1 s2 -> R s2 s3 -> R s1 s3.
  Hypothesis R_step : forall s k it, R s (forced_step s (k, it)) \/ K k it /\ fires s k it.

  Lemma forced_run_rel l : forall s,
    R s (forced_run s l) \/ exists k it, In (k, it) l /\ K k it /\ fires s k it.
  Proof.
    induction l as [|[k it] r IH]; intros s; [left; apply R_refl|]. cbn [In].
    destruct (R_step s k it) as [Hs|Hx]; [|right; exists k, it; auto].
    destruct (IH (forced_step s (k, it))) as [Hr|(k' & it' & Hin & Hk & Hf)].
    - left. exact (R_trans _ _ _ Hs Hr).
    - right. exists k', it'. eauto using fires_back.
  Qed.
End Run.

Lemma forced_run_pos l s m o i :
  pequiv (pm m s o i) (pm m (forced_run s l) o i) \/
  exists k it, In (k, it) l /\ (kmod k = m /\ i_owner it = o /\ i_id it = i) /\ fires s k it.
Proof.
  apply (forced_run_rel (fun s s' => pequiv (pm m s o i) (pm m s' o i))
                        (fun k it => kmod k = m /\ i_owner it = o /\ i_id it = i)).
  - intros s1. apply pequiv_refl.
  - intros s1 s2 s3. apply pequiv_trans.
  - intros s1 k it. destruct (forced_step_pos s1 k it m o i) as [H|(HK & Hf & _)]; auto.
Qed.

Lemma forced_run_funds l s o d :
  st_funds (forced_run s l) o d = st_funds s o d \/ exists k it, In (k, it) l /\ i_owner it = o /\ fires s k it.
Proof.
  apply (forced_run_rel (fun s s' => st_funds s' o d = st_funds s o d) (fun _ it => i_owner it = o)).
  - reflexivity.
  - intros s1 s2 s3 H1 H2. rewrite H2. exact H1.
  - intros s1 k it. apply forced_step_funds.
Qed.

Lemma forced_change_implies_guard l s m o i :
  core_at (pm m (forced_run s l)) o i <> core_at (pm m s) o i \/
  trig_at (pm m (forced_run s l)) o i <> trig_at (pm m s) o i ->
  exists k it p, In (k, it) l /\ kmod k = m /\ i_owner it = o /\ i_id it = i /\
                 pm m s o i = Some p /\ guard_of k (sf m s) (trig p) it = true.
Proof.
  intros H. destruct (forced_run_pos l s m o i) as [E|(k & it & Hin & (<- & <- & <-) & p & Hp & Hg)].
  - apply pequiv_at in E. destruct E as [Ec Et], H as [H|H]; contradiction H; auto.
  - exists k, it, p. repeat split; assumption || reflexivity.
Qed.

Corollary forced_unnamed_untouched : forall (l : list (kind * item)) s m o i,
  (forall k it, In (k, it) l -> ~ (kmod k = m /\ i_owner it = o /\ i_id it = i)) ->
  core_at (pm m (forced_run s l)) o i = core_at (pm m s) o i /\
  trig_at (pm m (forced_run s l)) o i = trig_at (pm m s) o i.
Proof.
  intros l s m o i Hn. destruct (forced_run_pos l s m o i) as [E|(k & it & Hin & HK & _)].
  - apply pequiv_at in E. destruct E; auto.
  - destruct (Hn k it Hin HK).
Qed.

(* the items of one list of a close-positions message *)
Lemma in_tagged (k k0 : kind) (it : item) l : In (k, it) (map (fun it : item => (k0, it)) l) -> k = k0 /\ In it l.
Proof. intros H. apply in_map_iff in H. destruct H as (x & E & Hx). injection E as <- <-. auto. Qed.

Lemma lev_liq_guard_spec sfv it :
  lev_liq_guard sfv it = true <-> exists h, i_health it = Some h /\ h <= sfv /\ i_liab it <> 0.
Proof.
  unfold lev_liq_guard, lev_may_liquidate, lev_is_healthy. destruct (i_health it) as [h|].
  - rewrite negb_true_iff, orb_false_iff, Z.ltb_ge, Z.eqb_neq. split; [eauto|].
    intros (h' & E & H). injection E as <-. exact H.
  - split; [discriminate|]. intros (h & E & _). discriminate.
Qed.

Lemma owner_close_ok s c s' : owner_close s c = Ok s' ->
  (exists p, pm (oc_mod c) s (oc_sender c) (oc_id c) = Some p) /\
  s' = with_funds (with_pm (oc_mod c) s (pset (pm (oc_mod c) s) (oc_sender c) (oc_id c) (oc_new c)))
                  (pay_all (st_funds s) (oc_sender c) (oc_pay c)).
Proof.
  unfold owner_close. destruct (pm (oc_mod c) s (oc_sender c) (oc_id c)) as [p|]; [|discriminate].
  destruct (oc_ok c); [|discriminate]. intros H. injection H as <-. eauto.
Qed.

(* the three open steps differ only in the comparison [b] they make *)
Lemma open_gen_ok (b : bool) s o s' :
  (if negb (op_pre o) then Err 3 else if negb b then Err 4 else Ok (open_store s o)) = Ok s' ->
  b = true /\ pm (op_mod o) s' (op_owner o) (op_id o) = Some (op_pos o).
Proof.
  destruct (op_pre o), b; cbn; intros H; try discriminate. injection H as <-.
  split; [reflexivity|apply pm_store_same].
Qed.

Lemma open_checks_on_true h sfv o :
  open_checks_on h sfv o = true -> sfv < h /\ forall h', op_hnew o = Some h' -> sfv < h'.
Proof.
  unfold open_checks_on, open_ok. intros H. apply andb_true_iff in H. destruct H as [A B].
  split; [apply Z.ltb_lt; exact B|]. intros h' E. rewrite E in A. apply Z.ltb_lt. exact A.
Qed.

(* the code before fix: ba85cca: whenever the checked value is the health of the position as stored, the property
   holds as stated *)
Theorem open_healthy_when_check_is_final_prefix : forall s o s',
  op_hcheck o = op_health o -> open_step_prefix s o = Ok s' -> sf (op_mod o) s < op_health o.
Proof.
  intros s o s' E H. apply open_gen_ok in H. destruct H as [H _]. rewrite <- E. exact (proj1 (open_checks_on_true _ _ _ H)).
Qed.

(* the code before fix: ba85cca violates "every successful open leaves health > safety factor": values observed on
   the real application (harness/c10_test.go c10Corpus()[2], step 1): perpetual safety factor
   1.249997633333333332, user 2 opens a long with 30 uusdc x 5 on the 100000 uusdc / 20000 uatom oracle pool at
   ATOM = 5: the handler computes and compares 1.249997633333333333 (accepted); the health of the stored
   position in the state the transaction leaves behind is 1.249624758333333333: any third party can have it
   liquidated in the same block. Every safety factor in [1.249624758333333333, 1.249997633333333333) does it. *)
Definition refuted_open : openop :=
  mkOpen MPerp 2 1 true None 1249997633333333333 1249624758333333333
         (mkPos 29917583 0 30000000 120000000 (Some 5013764514332591635) (Some 15000000000000000000) true) [(0, -30000000)].
Definition refuted_state : state := mkSt (fun _ _ => None) (fun _ _ => None) (fun _ _ => 0) 1100000000000000000 1249997633333333332.

(* the code as it is (since fix: ba85cca) *)
Lemma open_check_healthy s o s' :
  open_step s o = Ok s' ->
  sf (op_mod o) s < op_hcheck o /\
  (forall h, op_hnew o = Some h -> sf (op_mod o) s < h) /\
  pm (op_mod o) s' (op_owner o) (op_id o) = Some (op_pos o).
Proof.
  intros H. apply open_gen_ok in H. destruct H as [B E]. apply andb_true_iff in B.
  destruct (open_checks_on_true _ _ _ (proj1 B)). auto.
Qed.

Lemma open_healthy_perpetual s o s' :
  op_mod o = MPerp -> open_step s o = Ok s' -> sf MPerp s < op_health o.
Proof.
  intros Em H. apply open_gen_ok in H. destruct H as [B _]. rewrite Em in B.
  apply andb_true_iff in B. apply Z.ltb_lt. exact (proj2 B).
Qed.
