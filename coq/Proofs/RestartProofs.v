(* C19 - proofs about Models/Restart.v and the regenerated tables Generated/Determinism.v. *)
From Coq Require Import String List Permutation NArith Sorted Lia.
From Elys Require Import Base.Res Base.ListFacts Models.Restart Generated.Determinism.
Import ListNotations.

Lemma fields_ok : forallb no_memory_state fields = true.
Proof. vm_compute. reflexivity. Qed.
Lemma vars_ok : forallb var_ok pkgvars = true.
Proof. vm_compute. reflexivity. Qed.
Lemma sites_ok : forallb site_ok nd_sites = true.
Proof. vm_compute. reflexivity. Qed.

(* every reviewed state-writing range has a named commutativity instance (proved in BurnerProofs.v) *)
Definition range_instances : list (string * string * string) :=
  [("x/burner/keeper", "Keeper.BurnTokensForAllDenoms", "balances")]%string.

Lemma no_cells (fs : list kfield) (vs : list pvar) :
  forallb no_memory_state fs = true -> forallb var_ok vs = true -> memory_cells fs vs = [].
Proof.
  intros Hf Hv. unfold memory_cells. rewrite (proj1 (forallb_filter_nil _ _) Hf), (proj1 (forallb_filter_nil _ _) Hv). reflexivity.
Qed.

Lemma fold_res_perm {S K E : Type} (body : K -> E -> S -> res S) : commutes body ->
  forall l l', Permutation l l' -> NoDup (map fst l) -> forall a, fold_res body l a = fold_res body l' a.
Proof.
  intros Hc l l' HP.
  induction HP as [|x l l' HP IH|x y l|l l' l'' HP1 IH1 HP2 IH2]; intros ND a.
  - reflexivity.
  - cbn in ND. inversion ND as [|? ? Hn ND']; subst. unfold fold_res in *. cbn. apply IH. exact ND'.
  - unfold fold_res. cbn. f_equal. cbn in ND. inversion ND as [|? ? Hn ND']; subst.
    destruct a as [s|c|c]; cbn; try reflexivity.
    apply Hc. intros Heq. apply Hn. left. symmetry. exact Heq.
  - rewrite IH1 by exact ND. apply IH2.
    eapply Permutation_NoDup; [apply Permutation_map; exact HP1 | exact ND].
Qed.

Theorem order_irrelevant {S K E : Type} (body : K -> E -> S -> res S) (entries l1 l2 : list (K * E)) (s : S) :
  commutes body -> NoDup (map fst entries) -> Permutation l1 entries -> Permutation l2 entries ->
  fold_res body l1 (Ok s) = fold_res body l2 (Ok s).
Proof.
  intros Hc ND P1 P2. apply fold_res_perm; [exact Hc| |].
  - eapply Permutation_trans; [exact P1 | apply Permutation_sym; exact P2].
  - eapply Permutation_NoDup; [apply Permutation_map; apply Permutation_sym; exact P1 | exact ND].
Qed.

(* The hypothesis is needed: a body with an order-sensitive effect ("first one wins") distinguishes two orders. *)
Definition first_wins (k : nat) (_ : unit) (s : option nat) : res (option nat) :=
  match s with None => Ok (Some k) | Some w => Ok (Some w) end.

Lemma ins_sorted_perm x l : Permutation (ins_sorted x l) (x :: l).
Proof.
  induction l as [|y r IH]; cbn; [apply Permutation_refl|].
  destruct (N.leb x y); [apply Permutation_refl|].
  eapply Permutation_trans; [apply perm_skip; exact IH | apply perm_swap].
Qed.
Lemma isort_perm l : Permutation (isort l) l.
Proof.
  induction l as [|x r IH]; cbn; [apply Permutation_refl|].
  eapply Permutation_trans; [apply ins_sorted_perm | apply perm_skip; exact IH].
Qed.

Lemma ins_sorted_sorted x l : StronglySorted N.le l -> StronglySorted N.le (ins_sorted x l).
Proof.
  induction l as [|y r IH]; intros Hs; cbn.
  - constructor; constructor.
  - inversion Hs as [|? ? Hr Hall]; subst. destruct (N.leb_spec x y) as [Hle|Hgt].
    + constructor; [exact Hs|]. constructor; [exact Hle|].
      eapply Forall_impl; [|exact Hall]. intros z Hz. cbn in Hz. eapply N.le_trans; eassumption.
    + constructor; [apply IH; exact Hr|].
      apply (Permutation_Forall (Permutation_sym (ins_sorted_perm x r))).
      constructor; [apply N.lt_le_incl; exact Hgt | exact Hall].
Qed.
Lemma isort_sorted l : StronglySorted N.le (isort l).
Proof. induction l as [|x r IH]; cbn; [constructor | apply ins_sorted_sorted; exact IH]. Qed.

(* as for [fold_res_perm]: the order of insertion does not matter because two insertions commute; that the
   result is sorted plays no part *)
Lemma ins_sorted_comm x y l : ins_sorted x (ins_sorted y l) = ins_sorted y (ins_sorted x l).
Proof.
  induction l as [|z r IH]; cbn.
  2: destruct (x <=? z)%N eqn:Exz, (y <=? z)%N eqn:Eyz; cbn; rewrite ?Exz, ?Eyz, ?IH.
  (* what is left compares x and y at the head *)
  all: destruct (N.leb_spec x y), (N.leb_spec y x); cbn; rewrite ?Exz, ?Eyz; try reflexivity.
  (* x = y, or the comparisons contradict one another *)
  all: try (replace y with x by lia; reflexivity); rewrite ?N.leb_le, ?N.leb_gt in *; lia.
Qed.

Theorem isort_canonical l l' : Permutation l l' -> isort l = isort l'.
Proof.
  induction 1 as [|x l l' _ IH|x y l|l l' l'' _ IH1 _ IH2]; cbn.
  - reflexivity.
  - rewrite IH. reflexivity.
  - apply ins_sorted_comm.
  - rewrite IH1. exact IH2.
Qed.

(* whatever order the map range delivered the keys in, the loop after the sort computes the same thing -
   for ANY body, commutative or not *)
Theorem sorted_keys_deterministic {S : Type} (body : N -> S -> res S) (collected collected' : list N) (s : S) :
  Permutation collected collected' -> sorted_loop body collected s = sorted_loop body collected' s.
Proof. intros HP. unfold sorted_loop. rewrite (isort_canonical _ _ HP). reflexivity. Qed.

Section NodeProofs.
  Context {P T V R H K E : Type}.
  Variable hash : P -> H.
  Variable t0 : T.
  Variable m0 : list V.
  Variable ncell : nat.

  Notation node := (@node P T V).
  Notation op := (@op P T V R K E).

  (* all that the code can tell two nodes apart by: the stores and the memory cells it can reach *)
  Definition agree (n1 n2 : node) : Prop := st n1 = st n2 /\ firstn ncell (mem n1) = firstn ncell (mem n2).

  Lemma exec_op_agree (o : op) : op_ok ncell o ->
    forall (n1 n2 n1' n2' : node) r1 r2, agree n1 n2 ->
      exec_op o n1 n1' r1 -> exec_op o n2 n2' r2 -> agree n1' n2' /\ r1 = r2.
  Proof.
    intros Hok n1 n2 n1' n2' r1 r2 [Hst Hm] He1 He2.
    inversion He1 as [f s m s' m' r Hf | en body out s m l HPl]; subst;
      inversion He2 as [f2 s2 m2 s2' m2' r2' Hf2 | en2 body2 out2 s2 m2 l2 HPl2]; subst; cbn in *.
    - subst s2. specialize (Hok s m m2 Hm). rewrite Hf, Hf2 in Hok. cbn in Hok.
      destruct Hok as (A & B & C). repeat split; assumption.
    - subst s2. destruct Hok as [Hc Hnd]. unfold fold_body.
      rewrite (order_irrelevant body (en s) l l2 s Hc (Hnd s) HPl HPl2). repeat split; try reflexivity. exact Hm.
  Qed.

  Lemma exec_ops_agree (os : list op) : Forall (op_ok ncell) os ->
    forall (n1 n2 n1' n2' : node) rs1 rs2, agree n1 n2 ->
      exec_ops os n1 n1' rs1 -> exec_ops os n2 n2' rs2 -> agree n1' n2' /\ rs1 = rs2.
  Proof.
    induction os as [|o os IH]; intros Hall n1 n2 n1' n2' rs1 rs2 Ha He1 He2.
    - inversion He1; subst. inversion He2; subst. split; [exact Ha|reflexivity].
    - inversion Hall as [|? ? Ho Hos]; subst.
      inversion He1 as [|? ? ? a1 ? x1 xs1 Hx1 Hr1]; subst. inversion He2 as [|? ? ? a2 ? x2 xs2 Hx2 Hr2]; subst.
      destruct (exec_op_agree o Ho _ _ _ _ _ _ Ha Hx1 Hx2) as [Ha' ->].
      destruct (IH Hos _ _ _ _ _ _ Ha' Hr1 Hr2) as [Ha'' ->]. split; [exact Ha''|reflexivity].
  Qed.

  (* Two executions of the same blocks from the same stores and memory-cell contents produce the same
     observable trace (hash and results of every block) WHATEVER order the runtime picks in each map range,
     and wherever each of them is restarted, provided that
       (i)  the code can reach no memory cell at all (ncell = 0), or
       (ii) both are restarted at the same heights (then memory cells are harmless). *)
  Theorem run_agree (blocks : list (list op)) : Forall (Forall (op_ok ncell)) blocks ->
    forall cuts1 cuts2, (ncell = 0 \/ forall h, cuts1 h = cuts2 h) ->
    forall h (n1 n2 : node) tr1 tr2, agree n1 n2 ->
      run hash t0 m0 cuts1 h blocks n1 tr1 -> run hash t0 m0 cuts2 h blocks n2 tr2 -> tr1 = tr2.
  Proof.
    induction blocks as [|b bs IH]; intros Hall cuts1 cuts2 Hc h n1 n2 tr1 tr2 Ha R1 R2.
    - inversion R1; subst. inversion R2; subst. reflexivity.
    - inversion Hall as [|? ? Hb Hbs]; subst.
      inversion R1 as [|? ? ? ? a1 rs1 t1 E1 Rest1]; subst. inversion R2 as [|? ? ? ? a2 rs2 t2 E2 Rest2]; subst.
      destruct (exec_ops_agree b Hb _ _ _ _ _ _ Ha E1 E2) as [[A B] ->].
      rewrite A. f_equal.
      eapply (IH Hbs cuts1 cuts2 Hc (S h)); [|exact Rest1|exact Rest2]. split.
      + destruct (cuts1 h), (cuts2 h); cbn; rewrite A; reflexivity.
      + destruct Hc as [Hz|Hsame].
        * rewrite Hz. reflexivity.
        * rewrite <- (Hsame h). destruct (cuts1 h); cbn; [reflexivity | exact B].
  Qed.

  (* the relation is not empty: the executable run is one of the runs *)
  Lemma step_fun_exec (o : op) (n : node) : exec_op o n (fst (step_fun o n)) (snd (step_fun o n)).
  Proof.
    destruct n as [s m]. destruct o as [f|en body out]; cbn.
    - destruct (f s m) as [[s' m'] r] eqn:Hf. cbn. constructor. exact Hf.
    - apply (ex_range en body out s m (en s)). apply Permutation_refl.
  Qed.
  Lemma steps_fun_exec (os : list op) : forall n : node, exec_ops os n (fst (steps_fun os n)) (snd (steps_fun os n)).
  Proof.
    induction os as [|o os IH]; intros n; cbn; [constructor|].
    pose proof (step_fun_exec o n) as Ho. destruct (step_fun o n) as [n1 x]. cbn in Ho.
    pose proof (IH n1) as Hr. destruct (steps_fun os n1) as [n2 xs]. cbn in *. econstructor; eassumption.
  Qed.
  Lemma run_fun_runs cuts (bs : list (list op)) : forall h (n : node), run hash t0 m0 cuts h bs n (run_fun hash t0 m0 cuts h bs n).
  Proof.
    induction bs as [|b bs IH]; intros h n; cbn; [constructor|].
    pose proof (steps_fun_exec b n) as Hb. destruct (steps_fun b n) as [n1 rs]. cbn in Hb.
    econstructor; [exact Hb | apply IH].
  Qed.
End NodeProofs.

Theorem restart_invisible (fs : list kfield) (vs : list pvar) :
  forallb no_memory_state fs = true -> forallb var_ok vs = true ->
  forall (P T V R H K E : Type) (hash : P -> H) (t0 : T) (m0 : list V) (blocks : list (list (@op P T V R K E))),
    Forall (Forall (op_ok (length (memory_cells fs vs)))) blocks ->
    forall (cuts cuts' : nat -> bool) (n : @node P T V) tr tr',
      run hash t0 m0 cuts 0 blocks n tr -> run hash t0 m0 cuts' 0 blocks n tr' -> tr = tr'.
Proof.
  intros Hf Hv P T V R H K E hash t0 m0 blocks Hall cuts cuts' n tr tr' R1 R2.
  rewrite (no_cells fs vs Hf Hv) in Hall. cbn in Hall.
  exact (run_agree hash t0 m0 0 blocks Hall cuts cuts' (or_introl eq_refl) 0 n n tr tr' (conj eq_refl eq_refl) R1 R2).
Qed.

(* The table hypothesis is not vacuous: ONE keeper field that holds state (a map used as a cache) admits a
   node whose step respects that cell and whose hashes change when it is restarted. *)
Definition cache_field : kfield := mkF "x/demo/keeper" "Keeper" "cache" KMap "map[string]math.Int" false.
Definition leaky_step : @op nat unit nat unit nat unit :=
  Det (fun s m => let c := hd 0 m in (mkS (pers s + c) (trans s), [Datatypes.S c], tt)).
Definition leaky_blocks := [[leaky_step]; [leaky_step]; [leaky_step]].
Definition leaky_node : @node nat unit nat := mkNode (mkS 0 tt) [0].

Lemma leaky_blocks_ok : Forall (Forall (op_ok (length (memory_cells [cache_field] [])))) leaky_blocks.
Proof.
  assert (H : op_ok (length (memory_cells [cache_field] [])) leaky_step).
  { cbn. intros s m m' Hm. destruct m as [|a m]; destruct m' as [|a' m']; cbn in *; try discriminate; auto.
    injection Hm as ->. auto. }
  unfold leaky_blocks. repeat (apply Forall_cons || apply Forall_nil); exact H.
Qed.
