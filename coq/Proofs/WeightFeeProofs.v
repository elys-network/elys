(* Proofs about the weight-breaking fee model (Models/WeightFee.v):
   range of GetWeightBreakingFee ([0, 0.99]) and of the fee / bonus the swap functions derive from it;
   the fee is zero when the swap improves the weight distance, the bonus is positive only then (and only when the
   distance before was above the threshold) and never above 0.99 * portion; each whole swap function is the function
   of Models/AmmSwap.v at such a fee, so that the oracle-pool value theorems of Proofs/AmmSwapProofs2.v, stated for
   every fee in [0,1], apply to it (Props/C03.v).
   (Join and exit: Proofs/WeightFeeJoinExitProofs.v.) *)
From Coq Require Import ZArith List Lia.
From Elys Require Import Base.Res Base.ResFacts Base.Zdec Models.AmmSwap Proofs.AmmSwapProofs Proofs.AmmSwapProofs2 Proofs.PowBounds Proofs.PowSeries.
From Elys Require Import Models.WeightFee.
Import ListNotations.
Open Scope Z_scope.

Lemma dmul_le_r_one a b : 0 <= a -> 0 <= b <= PREC -> 0 <= dmul a b <= a.
Proof. exact (dmul_le_l a b). Qed.

Definition pow_nonneg (e : Z) : Prop := forall y pw, pow y e = Ok pw -> 0 <= pw.

(* the chain's parameter is 2.5 *)
Definition exp_int_or_half (e : Z) : Prop := 0 <= e /\ (Z.rem e PREC = 0 \/ Z.rem e PREC = HALF).

Lemma exp_ok_pow_nonneg e : exp_int_or_half e -> pow_nonneg e.
Proof.
  intros [He Hc] y pw H.
  destruct (pow_shape y e pw He H) as (Hy & ip & Hip & Hr).
  pose proof (power_nonneg y _ ip ltac:(lia) Hip) as Hip0.
  destruct Hr as [[_ ->]|(Hnz & fp & Hfp & ->)]; [exact Hip0|].
  destruct Hc as [Hz|Hh]; [contradiction|].
  apply dmul_nonneg; [exact Hip0|].
  unfold power_approx in Hfp. rewrite Hh, Z.eqb_refl in Hfp.
  apply (approx_sqrt_nonneg y fp); [lia|exact Hfp].
Qed.

Lemma WBF_CAP_lt_PREC : 0 < WBF_CAP < PREC. Proof. split; reflexivity. Qed.

Lemma get_wbf_zero_mult prm fi fo ti to ii io dd f :
  wp_mult prm = 0 -> get_wbf prm fi fo ti to ii io dd = Ok f -> f = 0.
Proof. intros Hm H. unfold get_wbf in H. rewrite Hm in H. simpl in H. now inversion H. Qed.

(* POSITIVE when the distance grows and the in-asset ends up over-weight relative to the out-asset
   (finalWeightIn/targetWeightIn >= finalWeightOut/targetWeightOut as the code computes the ratio: x >= 1):
   the fee is at least min(0.99, multiplier) *)
Lemma get_wbf_worsening_lower prm fi fo ti to ii io dd f :
  let x := dquo (dquo (dmul fi to) fo) ti in
  0 < wp_mult prm -> 0 <= wp_exp prm ->
  (Z.rem (wp_exp prm) PREC = 0 \/ Z.rem (wp_exp prm) PREC = HALF \/ x < TWO) ->
  0 < dd -> fo <> 0 -> fi <> 0 -> to <> 0 -> ti <> 0 -> PREC <= x ->
  get_wbf prm fi fo ti to ii io dd = Ok f ->
  Z.min WBF_CAP (wp_mult prm) <= f.
Proof.
  intros x Hm He Hc Hdd Hfo Hfi Hto Hti Hx H. unfold get_wbf in H.
  destruct (Z.eqb_spec (wp_mult prm) 0); [lia|].
  destruct (Z.ltb_spec 0 dd); [|lia].
  apply Z.eqb_neq in Hfo, Hfi, Hto, Hti. rewrite Hfo, Hfi, Hto, Hti in H. cbn [negb andb] in H.
  apply bind_ok in H. destruct H as (f0 & Hf & H). injection H as <-.
  apply bind_ok in Hf. destruct Hf as (pw & Hpw & Hf). apply cmul_ok in Hf.
  unfold wbf_ratio_pow in Hpw. apply bind_chk in Hpw. do 2 apply bind_cquo in Hpw.
  assert (Hpw1 : PREC <= pw) by (apply (pow_ge_one x (wp_exp prm) pw Hx He); [tauto|exact Hpw]).
  assert (Hf0 : wp_mult prm <= f0).
  { subst f0. rewrite <- (dmul_one_r (wp_mult prm)) at 1. pose proof PREC_pos. apply dmul_mono; lia. }
  destruct (Z.ltb_spec WBF_CAP f0); lia.
Qed.

(* what the callers make of the fee: the applied fee and the returned weightBalanceBonus, with d0 / d1 the weight
   distance before / after: a bonus is paid only without fee, for a distance that fell from above the threshold; what is
   not a bonus is the fee, negated *)
Definition fee_bonus (prm : wparams) (d0 d1 wbf bonus : Z) : Prop :=
  0 <= wbf <= WBF_CAP /\ bonus <= dmul WBF_CAP (wp_portion prm) /\
  (0 < bonus -> wbf = 0 /\ d1 < d0 /\ wp_thr prm < d0) /\
  (bonus <= 0 -> bonus = - wbf).

(* Params.Validate enforces multiplier, portion >= 0; the exponent is one on which Pow is known not to go negative *)
Section ValidParams.
  Variable prm : wparams.
  Hypothesis Hm : 0 <= wp_mult prm.
  Hypothesis Hp : pow_nonneg (wp_exp prm).
  Hypothesis Hpo : 0 <= wp_portion prm.

  Lemma get_wbf_range fi fo ti to ii io dd f :
    get_wbf prm fi fo ti to ii io dd = Ok f -> 0 <= f <= WBF_CAP.
  Proof.
    intros H. unfold get_wbf in H. pose proof WBF_CAP_lt_PREC as HC.
    destruct (wp_mult prm =? 0); [injection H as <-; lia|].
    apply bind_ok in H. destruct H as (f0 & Hf & H). injection H as <-.
    (* either branch: multiplier * Pow(ratio), or 0 *)
    assert (G : forall a b c d (g : bool),
      (if g then do pw <- wbf_ratio_pow a b c d (wp_exp prm); cmul (wp_mult prm) pw else Ok 0) = Ok f0 -> 0 <= f0).
    { intros a b c d [] G; [|injection G as <-; lia].
      apply bind_ok in G. destruct G as (pw & Hpw & G). apply cmul_ok in G. subst f0.
      unfold wbf_ratio_pow in Hpw. apply bind_chk in Hpw. do 2 apply bind_cquo in Hpw.
      apply dmul_nonneg; [exact Hm|exact (Hp _ _ Hpw)]. }
    assert (F0 : 0 <= f0) by (destruct (0 <? dd); exact (G _ _ _ _ _ Hf)).
    destruct (Z.ltb_spec WBF_CAP f0); lia.
  Qed.

  Lemma wb_swap_spec init kin kout din dout d0 perp wbf bonus :
    0 <= perp <= PREC ->
    wb_swap prm init kin kout din dout d0 perp = Ok (wbf, bonus) ->
    exists fin d1,
      after_swap init 0 kin kout din dout = Ok fin /\ weight_distance fin = Ok d1 /\
      fee_bonus prm d0 d1 wbf bonus /\ (d1 < d0 -> wbf = 0).
  Proof.
    intros Hpe H. unfold wb_swap in H. pose proof WBF_CAP_lt_PREC as HC.
    apply bind_ok in H. destruct H as (fin & Hfin & H).
    apply bind_ok in H. destruct H as (d1 & Hd1 & H). apply bind_chk in H.
    do 6 (apply bind_ok in H; destruct H as (? & _ & H)).   (* the target and oracle weights handed to get_wbf *)
    apply bind_ok in H. destruct H as (f0 & Hf0 & H). apply get_wbf_range in Hf0.
    unfold wb_decide_swap in H. do 2 apply bind_chk in H.
    pose proof (dmul_le_l f0 perp ltac:(lia) Hpe) as F1. set (f1 := dmul f0 perp) in *.
    pose proof (dmul_nonneg f1 (wp_portion prm) ltac:(lia) Hpo).
    pose proof (dmul_mono f1 (wp_portion prm) WBF_CAP (wp_portion prm) ltac:(lia) ltac:(lia)).
    exists fin, d1. split; [exact Hfin|]. split; [exact Hd1|]. unfold fee_bonus.
    destruct (Z.ltb_spec (d1 - d0) 0); [destruct (Z.ltb_spec (wp_thr prm) d0)|]; inversion H; subst wbf bonus;
      repeat split; lia.
  Qed.

  Lemma oracle_swap_out_wf_spec p assets kin kout a ratio perp fee out s oo bonus :
    0 <= perp <= PREC ->
    oracle_swap_out_wf p assets kin kout a ratio perp fee prm = Ok (out, s, oo, bonus) ->
    exists wbf d0 after fin d1,
      oracle_swap_out p a ratio wbf fee = Ok (out, s, oo) /\
      weight_distance assets = Ok d0 /\
      after_swap assets 0 kin kout a after = Ok fin /\ weight_distance fin = Ok d1 /\
      fee_bonus prm d0 d1 wbf bonus /\ (d1 < d0 -> wbf = 0).
  Proof.
    intros Hpe H. unfold oracle_swap_out_wf in H. unfold oracle_swap_out.
    destruct (price_in p =? 0); [discriminate|]. destruct (price_out p =? 0); [discriminate|].
    apply bind_ok in H. destruct H as (d0 & Hd0 & H).
    apply bind_chk in H. apply bind_cquo in H.
    destruct (ratio =? 0); [discriminate|].
    apply bind_ok in H. destruct H as (r & -> & H). cbn [bind].
    apply bind_ok in H. destruct H as ([bo sl] & -> & H). cbn [bind].
    apply bind_ok in H. destruct H as (s0 & -> & H). cbn [bind].
    do 2 apply bind_chk in H. apply bind_cquo in H.
    destruct (trunc_int _ <? 0); [discriminate|].
    apply bind_ok in H. destruct H as ([wbf bn] & Hwb & H).
    apply bind_ok in H. destruct H as ([out0 oo1] & Hout & H). injection H as -> -> -> ->.
    destruct (wb_swap_spec _ _ _ _ _ _ _ _ _ Hpe Hwb) as (fin & d1 & Hfin & Hd1 & F).
    exists wbf, d0. eexists. exists fin, d1. rewrite Hout.
    split; [reflexivity|]. split; [exact Hd0|]. split; [exact Hfin|]. split; [exact Hd1|exact F].
  Qed.

  Lemma oracle_swap_in_wf_spec p assets kin kout o ratio perp fee inn s oi bonus :
    0 <= perp <= PREC ->
    oracle_swap_in_wf p assets kin kout o ratio perp fee prm = Ok (inn, s, oi, bonus) ->
    exists wbf d0 after fin d1,
      oracle_swap_in p o ratio wbf fee = Ok (inn, s, oi) /\
      weight_distance assets = Ok d0 /\
      after_swap assets 0 kin kout after o = Ok fin /\ weight_distance fin = Ok d1 /\
      fee_bonus prm d0 d1 wbf bonus /\ (d1 < d0 -> wbf = 0).
  Proof.
    intros Hpe H. unfold oracle_swap_in_wf in H. unfold oracle_swap_in.
    destruct (price_in p =? 0); [discriminate|]. destruct (price_out p =? 0); [discriminate|].
    apply bind_ok in H. destruct H as (d0 & Hd0 & H).
    apply bind_chk in H. apply bind_cquo in H.
    destruct (ratio =? 0); [discriminate|].
    apply bind_ok in H. destruct H as (r & -> & H). cbn [bind].
    apply bind_ok in H. destruct H as ([bi sl] & -> & H). cbn [bind].
    apply bind_ok in H. destruct H as (s0 & -> & H). cbn [bind].
    do 2 apply bind_chk in H. apply bind_cquo in H.
    destruct (trunc_int _ <? 0); [discriminate|].
    apply bind_ok in H. destruct H as ([wbf bn] & Hwb & H).
    apply bind_ok in H. destruct H as ([in0 oi1] & Hout & H). injection H as -> -> -> ->.
    destruct (wb_swap_spec _ _ _ _ _ _ _ _ _ Hpe Hwb) as (fin & d1 & Hfin & Hd1 & F).
    exists wbf, d0. eexists. exists fin, d1. rewrite Hout.
    split; [reflexivity|]. split; [exact Hd0|]. split; [exact Hfin|]. split; [exact Hd1|exact F].
  Qed.
End ValidParams.

(* tie with the bonus decision of UpdatePoolForSwap (bonus_paid): what leaves the treasury is at most the treasury
   balance and at most base * 0.99 * portion *)
Lemma bonus_paid_with_fee_capped base bonus treasury b portion :
  0 <= base -> bonus <= dmul WBF_CAP portion ->
  bonus_paid true base bonus treasury = Ok b ->
  0 <= b /\ (0 < b -> b <= treasury /\ 0 < bonus /\ b * PREC <= base * dmul WBF_CAP portion).
Proof.
  intros Hb Hbn H. destruct (bonus_capped _ _ _ _ _ H) as [B0 B1].
  split; [exact B0|]. intros Hpos. destruct (B1 Hpos) as (T & _ & P & V).
  repeat split; try assumption. nia.
Qed.
