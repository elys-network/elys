(* C15, Models/Supply.v: supply = start + minted - burned, and what a history accepted by [step_ok] can do to the supply
   of each class of denomination (external, virtual, native, pool / vault share). *)
From Coq Require Import ZArith List Bool String Lia.
From Elys Require Import Base.Fn Models.Supply.
Import ListNotations.
Open Scope Z_scope.

Definition hist_ok (W : world) (tbl : list site) (h : list (list bop)) : Prop :=
  Forall (fun st => step_ok W tbl st = true) h.

Lemma zsum_map_closed {A} (P : Z -> Prop) (f : A -> Z) l :
  P 0 -> (forall a b, P a -> P b -> P (a + b)) -> (forall x, In x l -> P (f x)) -> P (zsum_map f l).
Proof.
  intros H0 Hadd. induction l as [|x r IH]; intros H; cbn; [exact H0|].
  apply Hadd; [apply H; left; reflexivity|]. apply IH. intros y Hy. apply H. right. exact Hy.
Qed.

Lemma zsum_map_nonpos {A} (f : A -> Z) l : (forall x, In x l -> f x <= 0) -> zsum_map f l <= 0.
Proof. apply (zsum_map_closed (fun z => z <= 0)); lia. Qed.
Lemma zsum_map_nonneg {A} (f : A -> Z) l : (forall x, In x l -> 0 <= f x) -> 0 <= zsum_map f l.
Proof. apply (zsum_map_closed (fun z => 0 <= z)); lia. Qed.
Lemma zsum_map_zero {A} (f : A -> Z) l : (forall x, In x l -> f x = 0) -> zsum_map f l = 0.
Proof. apply (zsum_map_closed (fun z => z = 0)); lia. Qed.

Lemma fold_left_diff {S O} (f : S -> O -> S) (v : S -> Z) (g k : O -> Z) :
  (forall s o, v (f s o) = v s + g o - k o) ->
  forall l s, v (fold_left f l s) = v s + zsum_map g l - zsum_map k l.
Proof. intros H. induction l as [|o l IH]; intros s; cbn; [|rewrite IH, H]; lia. Qed.

(* [mints_of] / [minted] and [burns_of] / [burned] indexed by the kind, so that each fact is proved once for both *)
Definition op_of (k : mkind) : nat -> string -> nat -> Z -> bop := match k with Mint => MintOp | Burn => BurnOp end.
(* the summands of [minted] / [burned] *)
Definition amt (k : mkind) (d : nat) (o : bop) : Z :=
  match o, k with
  | MintOp _ _ d' a, Mint | BurnOp _ _ d' a, Burn => if Nat.eqb d' d then a else 0
  | _, _ => 0
  end.
Definition ops_of (k : mkind) : nat -> list bop -> list (nat * string * Z) :=
  match k with Mint => mints_of | Burn => burns_of end.

Lemma in_ops_of k d st r m a : In (r, m, a) (ops_of k d st) <-> In (op_of k r m d a) st.
Proof.
  induction st as [|o st IH]; [destruct k; reflexivity|].
  destruct k, o as [f t d' a'|r' m' d' a'|r' m' d' a']; cbn in *; try destruct (Nat.eqb_spec d' d);
    cbn; rewrite IH; intuition congruence.
Qed.

Lemma amt_sum k d st : zsum_map (amt k d) st = zsum_map snd (ops_of k d st).
Proof.
  induction st as [|o st IH]; [destruct k; reflexivity|].
  destruct k, o as [f t d' a|r m d' a|r m d' a]; cbn in *; try destruct (Nat.eqb d' d); cbn; rewrite IH; reflexivity.
Qed.

Lemma amt_sum_nil k d st : ops_of k d st = [] -> zsum_map (amt k d) st = 0.
Proof. intros E. rewrite amt_sum, E. reflexivity. Qed.

Lemma apply_op_delta s o d : apply_op s o d = s d + delta d o.
Proof.
  destruct o as [f t d' a|r m d' a|r m d' a]; cbn; [lia|..]; rewrite Nat.eqb_sym;
    (destruct (Nat.eqb_spec d d') as [->|Hne]; [rewrite upd_same|rewrite upd_other by exact Hne]); lia.
Qed.

Lemma delta_split d o : delta d o = amt Mint d o - amt Burn d o.
Proof. destruct o as [f t d' a|r m d' a|r m d' a]; cbn; try destruct (Nat.eqb d' d); lia. Qed.

Lemma step_split s st d : apply_step s st d = s d + zsum_map (amt Mint d) st - zsum_map (amt Burn d) st.
Proof.
  apply (fold_left_diff apply_op (fun s => s d)). intros s0 o. rewrite apply_op_delta, delta_split. lia.
Qed.

Lemma supply_accounting h s d : run h s d = s d + minted d h - burned d h.
Proof. apply (fold_left_diff apply_step (fun s => s d)). intros s0 st. apply step_split. Qed.

Record accepted (W : world) (tbl : list site) (st : list bop) (k : mkind) (row : nat) (d : nat) (a : Z) (s : site) (e : dexpr) : Prop := {
  acc_row : nth_error tbl row = Some s;
  acc_pos : 0 < a;
  acc_entry : is_entry s = true;
  acc_bank : is_bank s = true;
  acc_kind : s_kind s = k;
  acc_in : In e (origin_of tbl s);
  acc_compat : compat e (w_dcl W d) = true;
  acc_paired : paired W tbl s st k d a = true }.

Lemma kind_eqb_eq a b : kind_eqb a b = true -> a = b.
Proof. destruct a, b; cbn; congruence. Qed.

Lemma row_ok_accepted {W tbl st k row m d a} :
  row_ok W tbl st k row m d a = true -> exists s e, accepted W tbl st k row d a s e.
Proof.
  intros H. unfold row_ok in H. destruct (nth_error tbl row) as [s|] eqn:Hn; [|rewrite andb_false_r in H; discriminate].
  rewrite !andb_true_iff in H. destruct H as (Hpos & (((((Hentry & Hbank) & Hkind) & _) & Hex) & Hpair)).
  apply existsb_exists in Hex. destruct Hex as (e & Hin & Hc).
  apply Z.ltb_lt in Hpos. apply kind_eqb_eq in Hkind. exists s, e. constructor; auto.
Qed.

Lemma ops_accepted {W tbl st} k d r m a :
  step_ok W tbl st = true -> In (r, m, a) (ops_of k d st) -> exists s e, accepted W tbl st k r d a s e.
Proof.
  intros Hst Hin. apply in_ops_of in Hin. unfold step_ok in Hst. rewrite forallb_forall in Hst. specialize (Hst _ Hin).
  apply (@row_ok_accepted W tbl st k r m d a). destruct k; exact Hst.
Qed.

Lemma step_amt_nonneg W tbl st k d : step_ok W tbl st = true -> 0 <= zsum_map (amt k d) st.
Proof.
  intros Hst. rewrite amt_sum. apply zsum_map_nonneg. intros [[r m] a] Hin.
  destruct (ops_accepted k d r m a Hst Hin) as (s & e & [_ Hpos _ _ _ _ _ _]). cbn. lia.
Qed.

Lemma hist_amt_zero W tbl h k d : hist_ok W tbl h ->
  (forall st r a s e, In st h -> accepted W tbl st k r d a s e -> False) -> zsum_map (fun st => zsum_map (amt k d) st) h = 0.
Proof.
  intros Hh Hno. unfold hist_ok in Hh. rewrite Forall_forall in Hh.
  apply zsum_map_zero. intros st Hst. rewrite amt_sum. apply zsum_map_zero. intros [[r m] a] Hin.
  destruct (ops_accepted k d r m a (Hh _ Hst) Hin) as (s & e & A). destruct (Hno _ _ _ _ _ Hst A).
Qed.

Lemma accepted_origins {W tbl st k row d a s e} :
  forallb (site_ok tbl) tbl = true -> accepted W tbl st k row d a s e ->
  forall e', In e' (origin_of tbl s) -> origin_ok s e' = true.
Proof.
  intros Htbl [Hn _ Hentry Hbank _ _ _ _]. rewrite forallb_forall in Htbl.
  pose proof (Htbl s (nth_error_In _ _ Hn)) as Hok. unfold site_ok in Hok.
  unfold is_entry in Hentry. destruct (s_reach s); try discriminate.
  unfold is_bank in Hbank. destruct (s_target s); try discriminate.
  apply andb_prop in Hok. apply forallb_forall, Hok.
Qed.

(* The pairing rule alone, whatever the table: an accepted operation on an EXTERNAL denomination is a burn of
   exactly the coin the burner has collected from the zero address in the same step ... *)
Lemma accepted_external {W tbl st k row d a s e} :
  accepted W tbl st k row d a s e -> w_dcl W d = RExternal ->
  k = Burn /\ has_exact_send (w_zero W) (w_burner W) d a st = true.
Proof.
  intros [_ _ _ _ _ _ _ Hp] Hd. unfold paired in Hp. rewrite Hd in Hp.
  destruct (zero_site tbl s); [|destruct k; discriminate].
  apply andb_prop in Hp. split; [apply kind_eqb_eq|]; apply Hp.
Qed.

(* ... and on a VIRTUAL one there is none *)
Lemma accepted_virtual {W tbl st k row d a s e} :
  accepted W tbl st k row d a s e -> w_dcl W d = RVirtual -> False.
Proof.
  intros [_ _ _ _ _ _ _ Hp] Hd. unfold paired in Hp. rewrite Hd in Hp.
  destruct (zero_site tbl s); [rewrite andb_false_r in Hp|destruct k]; discriminate.
Qed.

Lemma zero_site_in tbl s : In DZeroBal (origin_of tbl s) -> zero_site tbl s = true.
Proof. intros H. apply existsb_exists. exists DZeroBal. split; [exact H|reflexivity]. Qed.

Lemma zero_site_burner tbl s : (forall e', In e' (origin_of tbl s) -> origin_ok s e' = true) -> zero_site tbl s = true ->
  s_macc s = "burner"%string.
Proof.
  intros Hall Hz. apply existsb_exists in Hz. destruct Hz as (e & Hin & He).
  destruct e; try discriminate. specialize (Hall _ Hin). cbn in Hall.
  rewrite !andb_true_iff in Hall. apply String.eqb_eq, Hall.
Qed.

Lemma accepted_native {W tbl st k row d a s e} :
  forallb (site_ok tbl) tbl = true -> accepted W tbl st k row d a s e -> w_dcl W d = RNative ->
  match k with
  | Mint => s_macc s = "commitment"%string /\ s_module s = "commitment"%string /\ mem (s_func s) vest_release_fns = true /\
            has_release (w_commit W) d a st = true
  | Burn => mem (s_macc s) native_burners = true
  end.
Proof.
  intros Htbl A Hd. pose proof (accepted_origins Htbl A) as Hall. destruct A as [_ _ _ _ Hk Hin Hc Hp].
  unfold paired in Hp. rewrite Hd in Hp, Hc. destruct (zero_site tbl s) eqn:Hz.
  - (* the burner's row *) apply andb_prop in Hp. destruct Hp as [Hb _]. apply kind_eqb_eq in Hb. rewrite Hb.
    rewrite (zero_site_burner _ _ Hall Hz). reflexivity.
  - pose proof (Hall e Hin) as Ho. destruct e; try discriminate Hc; try discriminate Ho.
    3: rewrite (zero_site_in _ _ Hin) in Hz; discriminate Hz.
    all: cbn in Ho; rewrite Hk in Ho; destruct k; [|exact Ho]; rewrite !andb_true_iff, !String.eqb_eq in Ho; tauto.
Qed.

Lemma accepted_share {W tbl st k row d a s e} acct :
  forallb (site_ok tbl) tbl = true -> accepted W tbl st k row d a s e ->
  (w_dcl W d = RPoolShare acct \/ w_dcl W d = RVaultShare acct) ->
  match k with Mint => has_send_to acct st | Burn => has_send_from acct st || has_moved d a st end = true /\
  (w_dcl W d = RPoolShare acct -> s_macc s = "amm"%string) /\ (w_dcl W d = RVaultShare acct -> s_macc s = "stablestake"%string).
Proof.
  intros Htbl A Hd. pose proof (accepted_origins Htbl A) as Hall. destruct A as [_ _ _ _ Hk Hin Hc Hp].
  pose proof (Hall e Hin) as Ho. unfold paired in Hp.
  destruct (zero_site tbl s) eqn:Hz.
  { destruct Hd as [Hd|Hd]; rewrite Hd, andb_false_r in Hp; discriminate. }
  assert (He : e <> DZeroBal) by (intros ->; rewrite (zero_site_in _ _ Hin) in Hz; discriminate).
  split; [destruct Hd as [Hd|Hd]; rewrite Hd in Hp; destruct k; exact Hp|].
  split; intros Hd'; rewrite Hd' in Hc; destruct e; try discriminate Hc; try discriminate Ho; try (contradiction He; reflexivity);
    cbn in Ho; apply andb_prop in Ho; apply String.eqb_eq, Ho.
Qed.

Lemma exact_send_collects W d a st :
  has_exact_send (w_zero W) (w_burner W) d a st = true -> collects_from_zero W d st = true.
Proof.
  unfold has_exact_send, collects_from_zero. rewrite !existsb_exists. intros (o & Hin & Hm). exists o. split; [exact Hin|].
  destruct o as [f t d' a'| |]; try discriminate. rewrite (Nat.eqb_sym f), (Nat.eqb_sym t). apply andb_prop in Hm. apply Hm.
Qed.

(* both hold for every table: they rest on the pairing rule of the steps, not on what the rows are *)
Lemma external_supply W tbl h s d :
  hist_ok W tbl h -> w_dcl W d = RExternal ->
  minted d h = 0 /\ 0 <= burned d h /\ run h s d = s d - burned d h /\
  ((forall st, In st h -> collects_from_zero W d st = false) -> run h s d = s d).
Proof.
  intros Hh Hd.
  assert (Hm : minted d h = 0).
  { apply (hist_amt_zero W tbl h Mint d Hh). intros st r a s0 e _ A. destruct (accepted_external A Hd) as [K _]. discriminate K. }
  rewrite supply_accounting, Hm. repeat split; try lia.
  - unfold hist_ok in Hh. rewrite Forall_forall in Hh.
    apply zsum_map_nonneg. intros st Hst. exact (step_amt_nonneg W tbl st Burn d (Hh _ Hst)).
  - intros Hnc. enough (burned d h = 0) by lia.
    apply (hist_amt_zero W tbl h Burn d Hh). intros st r a s0 e Hst A.
    specialize (Hnc _ Hst). rewrite (exact_send_collects _ _ _ _ (proj2 (accepted_external A Hd))) in Hnc. discriminate Hnc.
Qed.

Lemma virtual_supply W tbl h s d : hist_ok W tbl h -> w_dcl W d = RVirtual -> run h s d = s d.
Proof.
  intros Hh Hd.
  assert (Hz : forall k, zsum_map (fun st => zsum_map (amt k d) st) h = 0)
    by (intros k; apply (hist_amt_zero W tbl h k d Hh); intros st r a s0 e _ A; exact (accepted_virtual A Hd)).
  pose proof (Hz Mint : minted d h = 0). pose proof (Hz Burn : burned d h = 0). rewrite supply_accounting. lia.
Qed.

Lemma monotone_step W tbl st s d :
  step_ok W tbl st = true ->
  (mints_of d st = [] -> apply_step s st d <= s d) /\ (burns_of d st = [] -> s d <= apply_step s st d).
Proof.
  intros Hst. rewrite step_split.
  pose proof (step_amt_nonneg W tbl st Mint d Hst). pose proof (step_amt_nonneg W tbl st Burn d Hst).
  split; intros E; [rewrite (amt_sum_nil Mint d st E)|rewrite (amt_sum_nil Burn d st E)]; lia.
Qed.

Lemma step_unchanged s st d : mints_of d st = [] -> burns_of d st = [] -> apply_step s st d = s d.
Proof. intros Em Eb. rewrite step_split, (amt_sum_nil Mint d st Em), (amt_sum_nil Burn d st Eb). lia. Qed.

Lemma share_op {W tbl st d acct} k {r m a} :
  forallb (site_ok tbl) tbl = true -> step_ok W tbl st = true -> (w_dcl W d = RPoolShare acct \/ w_dcl W d = RVaultShare acct) ->
  In (r, m, a) (ops_of k d st) ->
  0 < a /\ match k with Mint => has_send_to acct st | Burn => has_send_from acct st || has_moved d a st end = true /\
  exists s, nth_error tbl r = Some s /\ (w_dcl W d = RPoolShare acct -> s_macc s = "amm"%string) /\
            (w_dcl W d = RVaultShare acct -> s_macc s = "stablestake"%string).
Proof.
  intros Htbl Hst Hd Hin. destruct (ops_accepted k d r m a Hst Hin) as (s & e & A).
  destruct (accepted_share acct Htbl A Hd) as [H1 H2]. split; [apply A|]. split; [exact H1|]. exists s. split; [apply A|exact H2].
Qed.
