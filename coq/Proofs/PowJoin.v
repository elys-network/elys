(* C05, single-asset join of a weighted pool: calcPoolSharesOutGivenSingleAssetIn calls
   Pow(y, wn) with y = (B + a_after_fee)/B >= 1 and wn = w/total_weight in [0,1]. With the exact model of Pow
   (Models/AmmSwap.v [pow], validated against the Go code by the C03 harness) and the range facts of
   Proofs/PowSeries.v, 1 <= Pow(y, wn) <= y - the hypothesis of AmmJoinExitProofs.single_join_le_deposit - is proved when
     - wn = 1 (single-asset pool), wn = 1/2 (two equal weights: ApproxSqrt), wn = 0, or
     - y < 2 (the deposit after fee is smaller than the reserve; any weights: Maclaurin series).
   Not covered: y >= 2 with wn other than 0, 1/2, 1 (the ln/exp method). *)
From Coq Require Import ZArith List Lia.
From Elys Require Import Base.Res Base.Zdec Models.AmmSwap Models.AmmJoinExit.
From Elys Require Import Proofs.PowSeries.
Import ListNotations.
Open Scope Z_scope.

Lemma single_join_wn_range w tw : 0 <= w <= tw -> 0 < tw -> 0 <= single_join_wn w tw <= PREC.
Proof.
  intros Hw Htw. pose proof PREC_pos. unfold single_join_wn, dec_of_int. apply dquo_le_one; nia.
Qed.

Lemma single_join_wn_one w : 0 < w -> single_join_wn w w = PREC.
Proof. intros Hw. pose proof PREC_pos. unfold single_join_wn, dec_of_int. apply dquo_self. nia. Qed.

Lemma single_join_wn_half w : 0 < w -> single_join_wn w (2 * w) = HALF.
Proof.
  intros Hw. pose proof PREC_pos. unfold single_join_wn, dec_of_int.
  apply dquo_exact; [nia|rewrite <- HALF_PREC; ring].
Qed.

Lemma single_join_y_ge_one B w tw a fee :
  0 < B -> 0 <= a -> 0 <= fee <= PREC -> 0 <= w <= tw -> 0 < tw -> PREC <= single_join_y B w tw a fee.
Proof.
  intros HB Ha Hfee Hw Htw. pose proof PREC_pos as HP.
  destruct (single_join_wn_range w tw Hw Htw) as [W0 W1].
  unfold single_join_y. cbv zeta. set (wn := single_join_wn w tw) in *. unfold dec_of_int.
  destruct (dmul_le_l (PREC - wn) fee ltac:(lia) Hfee) as [F0 F1].
  assert (A0 : 0 <= dmul (a * PREC) (PREC - dmul (PREC - wn) fee)) by (apply dmul_nonneg; nia).
  apply dquo_ge_one. nia.
Qed.

Lemma single_join_pow_range B w tw a fee pw :
  0 < B -> 0 <= a -> 0 <= fee <= PREC -> 0 <= w <= tw -> 0 < tw ->
  pow (single_join_y B w tw a fee) (single_join_wn w tw) = Ok pw ->
  (w = tw \/ tw = 2 * w \/ w = 0 \/ single_join_y B w tw a fee < TWO) ->
  PREC <= pw <= single_join_y B w tw a fee.
Proof.
  intros HB Ha Hfee Hw Htw Hpow Hc.
  pose proof (single_join_y_ge_one B w tw a fee HB Ha Hfee Hw Htw) as Hy.
  pose proof (single_join_wn_range w tw Hw Htw) as Hwn.
  apply (pow_le_base _ (single_join_wn w tw) pw Hy Hwn); [|exact Hpow].
  destruct Hc as [->|[->|[->|Hlt]]].
  - right. right. right. apply single_join_wn_one. lia.
  - right. right. left. apply single_join_wn_half. lia.
  - right. left. pose proof PREC_pos. unfold single_join_wn, dec_of_int. apply dquo_exact; [nia|ring].
  - left. exact Hlt.
Qed.
