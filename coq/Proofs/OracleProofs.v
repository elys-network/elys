(* Proofs about Models/Oracle.v (C16). *)
From Coq Require Import ZArith List Bool Lia.
From Elys Require Import Base.Res Base.ResFacts Models.Oracle.
Import ListNotations.
Open Scope N_scope.

Lemma bcmp_refl a : bcmp a a = Eq.
Proof. induction a as [|x r IH]; cbn; [reflexivity|]. rewrite N.compare_refl. exact IH. Qed.

Lemma bcmp_spec a : forall b, CompareSpec (a = b) (bcmp a b = Lt) (bcmp b a = Lt) (bcmp a b).
Proof.
  induction a as [|x r IH]; intros [|y t]; cbn; try (constructor; reflexivity).
  destruct (N.compare_spec x y) as [->|L|L].
  - rewrite N.compare_refl. destruct (IH t) as [->| |]; constructor; auto.
  - constructor. reflexivity.
  - constructor. rewrite (proj2 (N.compare_lt_iff y x) L). reflexivity.
Qed.

Lemma bcmp_lt_trans a : forall b c, bcmp a b = Lt -> bcmp b c = Lt -> bcmp a c = Lt.
Proof.
  induction a as [|x r IH]; intros [|y t] [|z u] H1 H2; cbn in *; try discriminate; try reflexivity.
  destruct (N.compare_spec x y), (N.compare_spec y z), (N.compare_spec x z); try discriminate; try lia; eauto.
Qed.

Lemma bcmp_lt_neq a b : bcmp a b = Lt -> a <> b.
Proof. intros H ->. rewrite bcmp_refl in H. discriminate. Qed.

Lemma beqb_true a b : beqb a b = true <-> a = b.
Proof.
  unfold beqb. split; [|intros ->; rewrite bcmp_refl; reflexivity].
  destruct (bcmp_spec a b); [auto|discriminate..].
Qed.

Lemma beqb_false a b : beqb a b = false <-> a <> b.
Proof.
  split.
  - intros H E. apply beqb_true in E. congruence.
  - intros H. destruct (beqb a b) eqn:E; [apply beqb_true in E; contradiction|reflexivity].
Qed.

Lemma beqb_refl a : beqb a a = true.
Proof. apply beqb_true. reflexivity. Qed.

Lemma bcmp_app_head x : forall y z, bcmp (x ++ y) (x ++ z) = bcmp y z.
Proof. induction x as [|c r IH]; intros; cbn; [reflexivity|]. rewrite N.compare_refl. apply IH. Qed.

Lemma is_prefix_app_head x : forall p k, is_prefix (x ++ p) (x ++ k) = is_prefix p k.
Proof. induction x as [|c r IH]; intros; cbn; [reflexivity|]. rewrite N.eqb_refl. apply IH. Qed.

Lemma is_prefix_spec p : forall k, is_prefix p k = true <-> exists r, k = p ++ r.
Proof.
  induction p as [|x r IH]; intros k; cbn.
  - split; [intros _; exists k; reflexivity | reflexivity].
  - destruct k as [|y t].
    + split; [discriminate | intros [u H]; discriminate].
    + rewrite andb_true_iff, N.eqb_eq, IH. split.
      * intros [-> [u ->]]. eauto.
      * intros [u [= -> ->]]. eauto.
Qed.

Lemma is_prefix_self_app p r : is_prefix p (p ++ r) = true.
Proof. apply is_prefix_spec. exists r. reflexivity. Qed.

Lemma app_inv_tail_len {A} (l1 l1' l2 l2' : list A) :
  l1 ++ l2 = l1' ++ l2' -> length l2 = length l2' -> l1 = l1' /\ l2 = l2'.
Proof.
  intros H L. apply app_eq_app in H. destruct H as [l [[-> ->]|[-> ->]]]; rewrite app_length in L.
  all: destruct l; [rewrite app_nil_r; auto | cbn in L; lia].
Qed.

Lemma be_length n : forall x, length (be n x) = n.
Proof. induction n as [|m IH]; intros x; cbn [be length]; [reflexivity|]. rewrite IH. reflexivity. Qed.

Lemma divmod_cmp B qx rx qy ry : rx < B -> ry < B ->
  (B * qx + rx ?= B * qy + ry) = match qx ?= qy with Eq => rx ?= ry | c => c end.
Proof.
  intros Hx Hy. destruct (N.compare_spec qx qy) as [->|L|L].
  - destruct (N.compare_spec rx ry) as [->|R|R];
      [apply N.compare_refl | apply N.compare_lt_iff; lia | apply N.compare_gt_iff; lia].
  - apply N.compare_lt_iff. nia.
  - apply N.compare_gt_iff. nia.
Qed.

Lemma be_cmp n : forall x y, x < 256 ^ N.of_nat n -> y < 256 ^ N.of_nat n ->
  bcmp (be n x) (be n y) = (x ?= y).
Proof.
  induction n as [|m IH]; intros x y Hx Hy.
  - cbn in *. assert (x = 0) by lia. assert (y = 0) by lia. subst. reflexivity.
  - cbn [be bcmp]. set (B := 256 ^ N.of_nat m).
    assert (HB : B <> 0) by (apply N.pow_nonzero; discriminate).
    pose proof (N.mod_lt x B HB) as Mx. pose proof (N.mod_lt y B HB) as My. rewrite (IH _ _ Mx My).
    symmetry. rewrite (N.div_mod x B HB) at 1. rewrite (N.div_mod y B HB) at 1. apply divmod_cmp; assumption.
Qed.

Lemma u64_lt x : u64 x < U64.
Proof. unfold u64. apply N.mod_lt. discriminate. Qed.

Lemma u64_id x : x < U64 -> u64 x = x.
Proof. intros H. unfold u64. apply N.mod_small, H. Qed.

Lemma be8_length x : length (be8 x) = 8%nat.
Proof. apply be_length. Qed.

Lemma be8_cmp x y : x < U64 -> y < U64 -> bcmp (be8 x) (be8 y) = (x ?= y).
Proof.
  intros Hx Hy. unfold be8. rewrite !u64_id by assumption.
  apply be_cmp; assumption.
Qed.

Lemma price_key_of_cmp a s x y : x < U64 -> y < U64 ->
  bcmp (price_key_of a s x) (price_key_of a s y) = (x ?= y).
Proof.
  intros Hx Hy. unfold price_key_of. rewrite !bcmp_app_head. apply be8_cmp; assumption.
Qed.

Lemma price_key_prefix_as a q w :
  p_asset w = a /\ p_source w = q -> is_prefix (key_prefix_asset_source a q) (price_key w) = true.
Proof. intros [<- <-]. apply is_prefix_self_app. Qed.

Lemma price_key_prefix_a a w : p_asset w = a -> is_prefix (key_prefix_asset a) (price_key w) = true.
Proof.
  intros <-. unfold price_key, price_key_of, key_prefix_asset_source. rewrite <- !app_assoc. apply is_prefix_self_app.
Qed.

Lemma price_key_of_inj a s x a' s' y : x < U64 -> y < U64 ->
  price_key_of a s x = price_key_of a' s' y -> a ++ s = a' ++ s' /\ x = y.
Proof.
  intros Hx Hy H. unfold price_key_of, key_prefix_asset_source, key_prefix_asset in H.
  apply app_inv_tail_len in H; [|cbn [app length]; rewrite !be8_length; reflexivity]. destruct H as [H1 H2].
  rewrite <- !app_assoc in H1. apply app_inv_head in H1. split; [exact H1|].
  apply app_inv_head in H2. pose proof (be8_cmp x y Hx Hy) as C. rewrite H2, bcmp_refl in C.
  apply N.compare_eq, eq_sym, C.
Qed.

Definition keys_gt (k : bytes) (s : store) : Prop := forall x, In x s -> bcmp k (fst x) = Lt.

Fixpoint sorted (s : store) : Prop :=
  match s with
  | [] => True
  | x :: r => keys_gt (fst x) r /\ sorted r
  end.

Lemma keys_gt_cons k x s : bcmp k (fst x) = Lt -> keys_gt (fst x) s -> keys_gt k (x :: s).
Proof. intros H G y [<-|I]; [exact H | eapply bcmp_lt_trans; [exact H | apply G, I]]. Qed.

Lemma keys_gt_neq k s x : keys_gt k s -> In x s -> fst x <> k.
Proof. intros G I. apply not_eq_sym, bcmp_lt_neq, G, I. Qed.

Lemma sdel_spec k : forall s, sorted s ->
  sorted (sdel k s) /\ forall x, In x (sdel k s) <-> In x s /\ fst x <> k.
Proof.
  induction s as [|[k0 v0] r IH]; intros S; cbn [sdel]; [cbn; tauto|].
  destruct S as [G S]. cbn [fst] in G. destruct (IH S) as [S' E].
  destruct (bcmp_spec k k0) as [<-|L|L].
  - split; [exact S|]. intros x. pose proof (keys_gt_neq k r x G). split; [cbn; tauto|].
    intros [[<-|I] N]; [destruct N; reflexivity | exact I].
  - split; [cbn; auto|]. intros x. pose proof (keys_gt_neq k _ x (keys_gt_cons k (k0, v0) r L G)). tauto.
  - split.
    + split; [|exact S']. intros x I. apply G, E, I.
    + intros x. cbn [In]. rewrite E. apply bcmp_lt_neq in L. split; [|tauto].
      intros [<-|I]; [auto | tauto].
Qed.

Lemma sset_spec k v : forall s, sorted s ->
  sorted (sset k v s) /\ forall x, In x (sset k v s) <-> x = (k, v) \/ In x s /\ fst x <> k.
Proof.
  induction s as [|[k0 v0] r IH]; intros S; cbn [sset].
  - split; [split; [intros ? []|exact I] | cbn; intuition].
  - destruct S as [G S]. cbn [fst] in G. destruct (IH S) as [S' E].
    destruct (bcmp_spec k k0) as [<-|L|L].
    + split; [cbn; auto|]. intros x. pose proof (keys_gt_neq k r x G). cbn [In]. split; [intuition|].
      intros [->|[[<-|I] N]]; [auto | destruct N; reflexivity | auto].
    + pose proof (keys_gt_cons k (k0, v0) r L G) as G'. split; [cbn; auto|].
      intros x. pose proof (keys_gt_neq k _ x G'). cbn [In] in *. intuition.
    + split.
      * split; [|exact S']. intros x I. apply E in I. destruct I as [->|[I _]]; [exact L | apply G, I].
      * intros x. cbn [In]. rewrite E. apply bcmp_lt_neq in L. split; [|tauto].
        intros [<-|I]; [auto | tauto].
Qed.

Lemma sorted_unique_key : forall s, sorted s -> forall x y, In x s -> In y s -> fst x = fst y -> x = y.
Proof.
  induction s as [|a r IH]; intros S x y Ix Iy E; [destruct Ix|]. destruct S as [G S].
  destruct Ix as [<-|Ix], Iy as [<-|Iy]; [reflexivity | | | eauto].
  - destruct (keys_gt_neq _ _ _ G Iy). symmetry. exact E.
  - destruct (keys_gt_neq _ _ _ G Ix E).
Qed.

Lemma sorted_filter f : forall s, sorted s -> sorted (filter f s).
Proof.
  induction s as [|kv r IH]; intros S; cbn; [exact I|]. destruct S as [G S].
  destruct (f kv); [|apply IH, S]. cbn. split; [|apply IH, S].
  intros x Hx. apply filter_In in Hx. apply G, Hx.
Qed.

Definition wf_store (s : store) : Prop :=
  sorted s /\ forall k v, In (k, v) s -> k = price_key v /\ p_ts v < U64.

Lemma in_values s v : In v (values s) <-> exists k, In (k, v) s.
Proof.
  unfold values. rewrite in_map_iff. split.
  - intros [[k w] [E I]]. cbn in E. subst. eauto.
  - intros [k I]. exists (k, v). auto.
Qed.

Lemma wf_in_values s v : wf_store s -> In v (values s) -> In (price_key v, v) s /\ p_ts v < U64.
Proof.
  intros [S W] I. apply in_values in I. destruct I as [k I]. destruct (W _ _ I) as [-> T]. auto.
Qed.

Lemma wf_values s v : wf_store s -> (In v (values s) <-> In (price_key v, v) s).
Proof. intros WF. split; [apply wf_in_values, WF | intros I; apply in_values; eauto]. Qed.

Lemma wf_empty : wf_store [].
Proof. split; [exact I | intros ? ? []]. Qed.

Lemma set_price_spec v s : wf_store s -> p_ts v < U64 ->
  wf_store (set_price v s) /\
  forall w, In w (values (set_price v s)) <-> w = v \/ In w (values s) /\ price_key w <> price_key v.
Proof.
  intros WF T. unfold set_price. destruct (sset_spec (price_key v) v s (proj1 WF)) as [S' E].
  assert (WF' : wf_store (sset (price_key v) v s)).
  { split; [exact S'|]. intros k w I. apply E in I. destruct I as [[= -> ->]|[I _]]; [auto | apply WF, I]. }
  split; [exact WF'|]. intros w. rewrite (wf_values _ w WF'), E, (wf_values _ w WF). cbn [fst].
  split; (intros [H|H]; [left | right; exact H]); [injection H; auto | subst; reflexivity].
Qed.

(* what EndBlock does with one entry of its snapshot *)
Definition expire (p : params) (h t : N) (acc : store) (kv : bytes * price) : store :=
  let v := snd kv in
  let acc := if expired_time p t v then sdel (price_key v) acc else acc in
  if expired_height p h v then sdel (price_key v) acc else acc.

Lemma expire_in p h t acc kv : sorted acc ->
  sorted (expire p h t acc kv) /\
  forall x, In x (expire p h t acc kv) <->
    In x acc /\ ~ (live p h t (snd kv) = false /\ price_key (snd kv) = fst x).
Proof.
  intros S. unfold expire, live. set (k := price_key (snd kv)).
  destruct (sdel_spec k _ S) as [S1 E1]. destruct (sdel_spec k _ S1) as [S2 E2].
  destruct (expired_time p t (snd kv)), (expired_height p h (snd kv)); cbn [negb andb];
    (split; [assumption|]); intros x; rewrite ?E2, ?E1; intuition congruence.
Qed.

Lemma end_block_fold p h t : forall (l acc : store), sorted acc ->
  sorted (fold_left (expire p h t) l acc) /\
  forall x, In x (fold_left (expire p h t) l acc) <->
    In x acc /\ Forall (fun kv => ~ (live p h t (snd kv) = false /\ price_key (snd kv) = fst x)) l.
Proof.
  induction l as [|kv r IH]; intros acc S; cbn [fold_left].
  - split; [exact S|]. intros x. split; [auto|tauto].
  - destruct (expire_in p h t acc kv S) as [S1 E1]. destruct (IH _ S1) as [S' E']. split; [exact S'|].
    intros x. rewrite E', E1, Forall_cons_iff. tauto.
Qed.

(* the snapshot is the store itself: an entry goes exactly when its own turn deletes it, keys being unique *)
Lemma end_block_spec p h t s : wf_store s ->
  wf_store (end_block_prices p h t s) /\
  forall v, In v (values (end_block_prices p h t s)) <-> In v (values s) /\ live p h t v = true.
Proof.
  intros WF. destruct (end_block_fold p h t s s (proj1 WF)) as [S' E]. fold (end_block_prices p h t s) in S', E.
  assert (WF' : wf_store (end_block_prices p h t s)).
  { split; [exact S'|]. intros k w I. apply E in I. apply WF, I. }
  split; [exact WF'|]. intros v. rewrite (wf_values _ v WF'), E, (wf_values _ v WF), Forall_forall. cbn [fst].
  split; intros [I H]; (split; [exact I|]).
  - destruct (live p h t v) eqn:D; [reflexivity|]. destruct (H _ I). auto.
  - intros [k0 v0] I0 [D0 K0]. cbn [snd] in D0, K0. destruct (proj2 WF _ _ I0) as [-> _]. rewrite K0 in I0.
    injection (sorted_unique_key _ (proj1 WF) _ _ I0 I eq_refl) as ->. congruence.
Qed.

Lemma find_app {A} (f : A -> bool) l1 l2 :
  find f (l1 ++ l2) = match find f l1 with Some x => Some x | None => find f l2 end.
Proof. induction l1 as [|x r IH]; cbn; [reflexivity|]. destruct (f x); auto. Qed.

Lemma find_last f : forall l, sorted l ->
  match find f (rev l) with
  | Some x => In x l /\ f x = true /\ forall y, In y l -> f y = true -> y = x \/ bcmp (fst y) (fst x) = Lt
  | None => forall y, In y l -> f y = false
  end.
Proof.
  induction l as [|a r IH]; intros S; cbn [rev]; [intros y []|].
  destruct S as [G S]. specialize (IH S). rewrite find_app. destruct (find f (rev r)) as [x|].
  - destruct IH as (I1 & I2 & I3). split; [right; exact I1|]. split; [exact I2|].
    intros y [<-|Iy] Fy; [right; apply G, I1 | apply I3; assumption].
  - cbn. destruct (f a) eqn:Fa.
    + split; [left; reflexivity|]. split; [exact Fa|].
      intros y [<-|Iy] Fy; [left; reflexivity|]. rewrite (IH y Iy) in Fy. discriminate.
    + intros y [<-|Iy]; [exact Fa | apply IH, Iy].
Qed.

Lemma rev_prefix_iter_in p s kv : In kv (rev_prefix_iter p s) <-> In kv s /\ is_prefix p (fst kv) = true.
Proof. unfold rev_prefix_iter. rewrite <- in_rev, filter_In. reflexivity. Qed.

(* the comparison changes nothing when every entry under the prefix passes it: both scans stop at the first entry *)
Lemma scan_unfixed p want s : (forall k v, In (k, v) s -> is_prefix p k = true -> want v = true) ->
  first_entry false want (rev_prefix_iter p s) = first_entry true want (rev_prefix_iter p s).
Proof.
  intros H. unfold first_entry. f_equal.
  pose proof (fun kv => proj1 (rev_prefix_iter_in p s kv)) as I. destruct (rev_prefix_iter p s) as [|[k v] r]; [reflexivity|].
  destruct (I (k, v) (or_introl eq_refl)) as [Ik P]. cbn. rewrite (H k v Ik P). reflexivity.
Qed.

(* the scan that compares the decoded asset / source ([fixed = true]), when the comparison decides [C] and the keys
   of all [C]-prices have the prefix: of the stored [C]-prices, one that is the newest of its (asset, source) *)
Lemma scan_spec p want (C : price -> Prop) s : wf_store s ->
  (forall w, want w = true <-> C w) -> (forall w, C w -> is_prefix p (price_key w) = true) ->
  match first_entry true want (rev_prefix_iter p s) with
  | Some v => In v (values s) /\ C v /\
      forall w, In w (values s) -> C w -> p_asset w = p_asset v -> p_source w = p_source v -> p_ts w <= p_ts v
  | None => forall w, In w (values s) -> ~ C w
  end.
Proof.
  intros WF HW HP. unfold first_entry, rev_prefix_iter. set (l := filter _ s).
  pose proof (find_last (fun kv => want (snd kv)) l (sorted_filter _ s (proj1 WF))) as F.
  assert (Hit : forall w, In w (values s) -> C w -> In (price_key w, w) l /\ want w = true /\ p_ts w < U64).
  { intros w Iw Cw. destruct (wf_in_values _ _ WF Iw) as [Ik Tw].
    split; [apply filter_In; split; [exact Ik | apply HP, Cw] | split; [apply HW, Cw | exact Tw]]. }
  destruct (find _ _) as [[k v]|]; cbn [option_map snd].
  - destruct F as (I & W & M). apply filter_In in I. destruct I as [I _]. destruct (proj2 WF _ _ I) as [-> Tv].
    split; [apply in_values; eauto|]. split; [apply HW, W|].
    intros w Iw Cw Aw Sw. destruct (Hit w Iw Cw) as (Ik & Ww & Tw).
    (* the keys of one (asset, source) compare as the timestamps do *)
    destruct (M _ Ik Ww) as [[= _ ->]|L]; [lia|]. cbn [fst] in L.
    unfold price_key in L. rewrite Aw, Sw, price_key_of_cmp in L by assumption. apply N.lt_le_incl, L.
  - intros w Iw Cw. destruct (Hit w Iw Cw) as (Ik & Ww & _). apply F in Ik. cbn [snd] in Ik. congruence.
Qed.

Lemma scan_in fixed want p s v : first_entry fixed want (rev_prefix_iter p s) = Some v -> In v (values s).
Proof.
  intros H. apply in_values.
  assert (exists k, In (k, v) (rev_prefix_iter p s)) as [k I].
  { unfold first_entry in H. destruct fixed.
    - destruct (find _ _) as [[k w]|] eqn:F; [|discriminate]. injection H as <-. exists k. apply (find_some _ _ F).
    - destruct (rev_prefix_iter p s) as [|[k w] r]; [discriminate|]. injection H as <-. exists k. left. reflexivity. }
  exists k. apply rev_prefix_iter_in in I. apply I.
Qed.

Lemma get_asset_price_in fixed s a v : get_asset_price fixed s a = Some v -> In v (values s).
Proof.
  unfold get_asset_price. intros H.
  destruct (latest_asset_source fixed s a ELYS) eqn:E1; [injection H as <-; exact (scan_in _ _ _ _ _ E1)|].
  destruct (latest_asset_source fixed s a BAND) eqn:E2; [injection H as <-; exact (scan_in _ _ _ _ _ E2)|].
  exact (scan_in _ _ _ _ _ H).
Qed.

Lemma want_as a q w : beqb (p_asset w) a && beqb (p_source w) q = true <-> p_asset w = a /\ p_source w = q.
Proof. rewrite andb_true_iff, !beqb_true. reflexivity. Qed.

Lemma fixed_as s a q : wf_store s ->
  match latest_asset_source true s a q with
  | Some v => is_newest (values s) a q v
  | None => ~ has (values s) a q
  end.
Proof.
  intros WF. unfold latest_asset_source.
  pose proof (scan_spec _ _ _ s WF (want_as a q) (price_key_prefix_as a q)) as H.
  destruct (first_entry _ _ _) as [v|].
  - destruct H as (I & [A S] & M). repeat (split; [assumption|]).
    intros w Iw Aw Sw. apply M; auto; congruence.
  - intros (w & Iw & Aw & Sw). exact (H w Iw (conj Aw Sw)).
Qed.

Lemma fixed_any s a : wf_store s ->
  match latest_any_source true s a with
  | Some v => is_newest (values s) a (p_source v) v
  | None => forall w, In w (values s) -> p_asset w <> a
  end.
Proof.
  intros WF. unfold latest_any_source.
  pose proof (scan_spec _ _ _ s WF (fun w => beqb_true (p_asset w) a) (price_key_prefix_a a)) as H.
  destruct (first_entry _ _ _) as [v|]; [|exact H].
  destruct H as (I & A & M). repeat (split; [auto|]).
  intros w Iw Aw Sw. apply M; auto; congruence.
Qed.

Lemma is_newest_has m a q v : is_newest m a q v -> has m a q.
Proof. intros (I & A & S & _). exists v. auto. Qed.

(* hence the lookup that compares meets the specification for ALL names *)
Lemma fixed_lookup_ok s a : wf_store s -> lookup_ok (values s) a (get_asset_price true s a).
Proof.
  intros WF. unfold lookup_ok, get_asset_price.
  pose proof (fixed_as s a ELYS WF) as N1. pose proof (fixed_as s a BAND WF) as N2.
  destruct (latest_asset_source true s a ELYS) as [v1|].
  - split; [intros _; eauto|]. split; intros NH; destruct NH; exact (is_newest_has _ _ _ _ N1).
  - split; [intros H; contradiction|]. destruct (latest_asset_source true s a BAND) as [v2|].
    + split; [intros _ _; eauto|]. intros _ NH. destruct NH. exact (is_newest_has _ _ _ _ N2).
    + split; [intros _ H; contradiction|]. intros _ _. exact (fixed_any s a WF).
Qed.

(* the lookup without the comparison ([fixed = false]) coincides with it when every key captured by a scan prefix
   of the asked asset belongs to the asked asset (and, in the elys/band tiers, to the asked source) *)
Definition store_sep (s : store) (a : bytes) : Prop :=
  forall k v q, In (k, v) s -> In q TIERS -> is_prefix (key_prefix_asset_source a q) k = true ->
    p_asset v = a /\ (q = [] \/ p_source v = q).

Lemma unfixed_eq_fixed s a : store_sep s a -> get_asset_price false s a = get_asset_price true s a.
Proof.
  intros SP.
  assert (A : forall q, In q TIERS -> q <> [] -> latest_asset_source false s a q = latest_asset_source true s a q).
  { intros q Iq Nq. apply scan_unfixed. intros k v I P.
    destruct (SP _ _ _ I Iq P) as [-> [E | ->]]; [contradiction|]. rewrite !beqb_refl. reflexivity. }
  assert (B : latest_any_source false s a = latest_any_source true s a).
  { apply scan_unfixed. intros k v I P.
    destruct (SP k v [] I) as [-> _]; [cbn; auto | unfold key_prefix_asset_source; rewrite app_nil_r; exact P |].
    apply beqb_refl. }
  unfold get_asset_price. rewrite (A ELYS), (A BAND), B; [reflexivity | cbn; auto | discriminate | cbn; auto | discriminate].
Qed.

Lemma lookup_ok_ext m m' a r : (forall v, In v m <-> In v m') -> lookup_ok m a r -> lookup_ok m' a r.
Proof. intros E H. unfold lookup_ok, has, is_newest in *. destruct r; setoid_rewrite <- E; exact H. Qed.

Definition op_feeds (o : op) (sender : N) (f : feed) : Prop :=
  match o with
  | OFeed sd f' => sd = sender /\ f' = f
  | OFeedMulti sd fs => sd = sender /\ In f fs
  | _ => False
  end.

Definition feed_sender (o : op) : option N :=
  match o with OFeed sd _ => Some sd | OFeedMulti sd _ => Some sd | _ => None end.

Definition is_end_block (o : op) : bool := match o with OEndBlock _ => true | _ => false end.

Lemma feeder_check_spec s a :
  if authorised s a then feeder_check s a = Ok tt else exists c, feeder_check s a = Err c.
Proof. unfold authorised, feeder_check. destruct (fget a (st_feeders s)) as [[|]|]; eauto. Qed.

(* the transactions, as [spec_step] reads them *)
Lemma exec_feed s sd f : exec s (OFeed sd f) =
  if valid_feed f && authorised s sd then with_prices s (set_price (mk_price s sd f) (st_prices s)) else s.
Proof.
  unfold exec, run_tx. cbn [step]. pose proof (feeder_check_spec s sd) as C.
  destruct (valid_feed f); [|reflexivity]. destruct (authorised s sd); [rewrite C|destruct C as [c ->]]; reflexivity.
Qed.

Lemma exec_feed_multi s sd fs : exec s (OFeedMulti sd fs) =
  if negb (match fs with [] => true | _ => false end) && forallb valid_feed fs && authorised s sd
  then with_prices s (fold_left (fun st f => set_price (mk_price s sd f) st) fs (st_prices s)) else s.
Proof.
  unfold exec, run_tx. cbn [step]. pose proof (feeder_check_spec s sd) as C.
  destruct (_ && forallb _ _); [|reflexivity]. destruct (authorised s sd); [rewrite C|destruct C as [c ->]]; reflexivity.
Qed.

Lemma exec_end_block s dt :
  exec s (OEndBlock dt) = mkS (end_block_prices (st_params s) (st_h s) (st_t s) (st_prices s))
                              (st_feeders s) (st_infos s) (st_params s) (st_h s + 1) (st_t s + dt).
Proof. reflexivity. Qed.

Lemma exec_prices_other s o : feed_sender o = None -> is_end_block o = false ->
  st_prices (exec s o) = st_prices s.
Proof.
  intros F B. unfold exec. apply (run_tx_rel (fun s s' => st_prices s' = st_prices s)); [reflexivity|].
  intros s' H. destruct o; try discriminate; cbn [step] in H; repeat (apply guard_ok in H; destruct H as [_ H]);
    try (destruct (fget _ _); [|discriminate]); try (destruct (iget _ _); [discriminate|]);
    injection H as <-; reflexivity.
Qed.

Lemma unauthorised_feed_rejected s o sender :
  feed_sender o = Some sender -> authorised s sender = false ->
  (exists c, step s o = Err c) /\ exec s o = s.
Proof.
  intros F A. pose proof (feeder_check_spec s sender) as C. rewrite A in C. destruct C as [c C].
  assert (X : exists c, step s o = Err c).
  { destruct o; try discriminate; injection F as ->; cbn [step]; unfold guard;
      (match goal with |- context [if ?b then _ else _] => destruct b end; [rewrite C|]); cbn; eauto. }
  split; [exact X|]. destruct X as [c' X]. unfold exec, run_tx. rewrite X. reflexivity.
Qed.

Lemma prices_changed_only_by s o : st_prices (exec s o) <> st_prices s ->
  is_end_block o = true \/ exists sender, feed_sender o = Some sender /\ authorised s sender = true.
Proof.
  intros H. destruct (is_end_block o) eqn:B; [auto|]. right.
  destruct (feed_sender o) as [sender|] eqn:F.
  - exists sender. split; [reflexivity|]. destruct (authorised s sender) eqn:A; [reflexivity|].
    destruct H. destruct (unauthorised_feed_rejected _ _ _ F A) as [_ ->]. reflexivity.
  - destruct H. apply exec_prices_other; assumption.
Qed.

Definition Inv (s : state) : Prop := wf_store (st_prices s).

Lemma exec_values s o : Inv s ->
  Inv (exec s o) /\
  forall v, In v (values (st_prices (exec s o))) ->
    In v (values (st_prices s)) \/
    exists sender f, authorised s sender = true /\ op_feeds o sender f /\ v = mk_price s sender f.
Proof.
  unfold Inv. intros WF. destruct o; try (rewrite exec_prices_other by reflexivity; auto).
  - rewrite exec_feed. destruct (valid_feed f); [|auto]. destruct (authorised s sender) eqn:A; [|auto].
    destruct (set_price_spec (mk_price s sender f) _ WF (u64_lt _)) as [W E]. split; [exact W|].
    intros v I. apply E in I. destruct I as [->|[I _]]; [|auto]. right. exists sender, f. cbn. auto.
  - rewrite exec_feed_multi. destruct (_ && forallb _ _); [|auto]. destruct (authorised s sender) eqn:A; [|auto].
    (* a multiple feed is one write after the other: the statement itself is the invariant of the fold *)
    cbn [andb st_prices with_prices]. apply (fold_inv (fun st => wf_store st /\ forall v, In v (values st) -> (_ : Prop)) (fun f => In f fs));
      [|apply Forall_forall; auto|auto].
    intros st f If [W H]. destruct (set_price_spec (mk_price s sender f) _ W (u64_lt _)) as [W' E]. split; [exact W'|].
    intros v I. apply E in I. destruct I as [->|[I _]]; [|auto]. right. exists sender, f. cbn. auto.
  - destruct (end_block_spec (st_params s) (st_h s) (st_t s) _ WF) as [W E]. split; [exact W|].
    intros v I. left. apply E, I.
Qed.

Lemma run_inv ops : forall s, Inv s -> Inv (run s ops).
Proof. intros s. apply (fold_inv Inv (fun _ => True)); [intros s' o _; apply exec_values | apply Forall_all; auto]. Qed.

Lemma expiry_step fixed s dt a v : Inv s -> lookup fixed (exec s (OEndBlock dt)) a = Some v ->
  In v (values (st_prices s)) /\ live (st_params s) (st_h s) (st_t s) v = true.
Proof. intros WF H. apply get_asset_price_in in H. apply (end_block_spec _ _ _ _ WF), H. Qed.

Lemma no_info_zero fixed s d : iget d (st_infos s) = None -> price_from_denom fixed s d = 0%Z.
Proof. intros H. unfold price_from_denom. rewrite H. reflexivity. Qed.

Lemma no_price_zero fixed s d i : iget d (st_infos s) = Some i -> lookup fixed s (i_display i) = None ->
  price_from_denom fixed s d = 0%Z.
Proof. intros H L. unfold price_from_denom. rewrite H, L. reflexivity. Qed.

Lemma lookup_ok_none m a r : lookup_ok m a r -> (forall w, In w m -> p_asset w <> a) -> r = None.
Proof.
  intros (_ & _ & C) N.
  assert (NH : forall q, ~ has m a q) by (intros q (w & Iw & Aw & _); exact (N w Iw Aw)).
  specialize (C (NH ELYS) (NH BAND)). destruct r as [v|]; [|reflexivity].
  destruct C as (I & A & _). exfalso. exact (N v I A).
Qed.

Definition refines (names : list (bytes * bytes)) (st : store) (m : list price) : Prop :=
  wf_store st /\
  (forall v, In v (values st) -> In (p_asset v, p_source v) names) /\
  forall v, In v (values st) <-> In v m.

Lemma empty_start names s : st_prices s = [] -> refines names (st_prices s) [].
Proof. intros ->. split; [apply wf_empty|]. split; [intros v []|intros v; reflexivity]. Qed.

Lemma same_slot_true v w : same_slot v w = true <->
  p_asset v = p_asset w /\ p_source v = p_source w /\ p_ts v = p_ts w.
Proof. unfold same_slot. rewrite !andb_true_iff, !beqb_true, N.eqb_eq. tauto. Qed.

(* on separated names two prices share a key exactly when they share asset, source and timestamp: equal keys
   have equal concatenations asset||source, of which one asset is then a prefix of the other's key *)
Lemma slot_key names v w : sep names ->
  In (p_asset v, p_source v) names -> In (p_asset w, p_source w) names -> p_ts v < U64 -> p_ts w < U64 ->
  (price_key w = price_key v <-> same_slot v w = true).
Proof.
  intros SP Iv Iw Tv Tw. rewrite same_slot_true. split.
  - intros K. destruct (price_key_of_inj _ _ _ _ _ _ Tw Tv K) as [C T].
    assert (E : p_asset v = p_asset w).
    { apply (SP _ _ Iw _ _ [] (p_ts v) Iv); [cbn; auto|].
      rewrite app_nil_r, app_assoc, <- C, <- app_assoc. apply is_prefix_self_app. }
    rewrite <- E in C. apply app_inv_head in C. auto.
  - intros (A & S & T). unfold price_key. rewrite A, S, T. reflexivity.
Qed.

Lemma set_price_refines names st m v : sep names -> In (p_asset v, p_source v) names -> p_ts v < U64 ->
  refines names st m -> refines names (set_price v st) (spec_feed v m).
Proof.
  intros SP Iv Tv (WF & NI & Rm). destruct (set_price_spec v st WF Tv) as [WF' E]. split; [exact WF'|]. split.
  - intros w I. apply E in I. destruct I as [->|[I _]]; auto.
  - assert (K : forall w, In w (values st) -> (price_key w = price_key v <-> same_slot v w = true)).
    { intros w I. apply (slot_key names); auto. apply (wf_in_values _ _ WF I). }
    intros w. rewrite E. unfold spec_feed. cbn [In].
    rewrite filter_In, negb_true_iff, <- (Rm w), <- not_true_iff_false.
    split; (intros [->|[I N]]; [auto|]); right; (split; [exact I|]).
    + rewrite <- (K w I). exact N.
    + rewrite (K w I). exact N.
Qed.

Lemma step_refines names s o m : sep names -> op_in names o -> refines names (st_prices s) m ->
  refines names (st_prices (exec s o)) (spec_step s o m).
Proof.
  intros SP OI Rm.
  destruct o; try (rewrite exec_prices_other by reflexivity; exact Rm); cbn [spec_step op_in] in *.
  - rewrite exec_feed. destruct (_ && _); [|exact Rm]. apply set_price_refines; auto. apply u64_lt.
  - rewrite exec_feed_multi. destruct (_ && _); [|exact Rm]. cbn [st_prices with_prices].
    revert OI Rm. generalize (st_prices s). revert m.
    induction fs as [|f r IH]; intros m st FI Rm; cbn [fold_left]; [exact Rm|].
    inversion FI as [|? ? F1 F2]; subst. apply IH; [exact F2|].
    apply set_price_refines; auto. apply u64_lt.
  - destruct Rm as (WF & NI & Rm). destruct (end_block_spec (st_params s) (st_h s) (st_t s) _ WF) as [WF' E].
    split; [exact WF'|]. split.
    + intros v I. apply E in I. apply NI, I.
    + intros v. rewrite filter_In, <- (Rm v). apply E.
Qed.

Lemma spec_run_refines names : sep names -> forall ops s m,
  refines names (st_prices s) m -> Forall (op_in names) ops ->
  fst (spec_run s m ops) = run s ops /\ refines names (st_prices (run s ops)) (snd (spec_run s m ops)).
Proof.
  intros SP. induction ops as [|o r IH]; intros s m Rm FO; cbn [spec_run run fold_left fst snd]; [auto|].
  inversion FO as [|? ? O1 O2]; subst. apply IH; [|exact O2]. exact (step_refines names s o m SP O1 Rm).
Qed.

Lemma sep_store_sep names st m a : refines names st m -> sep_for names a -> store_sep st a.
Proof.
  intros (WF & NI & _) SF k v q I Iq P.
  assert (Iv : In v (values st)) by (apply in_values; eauto).
  destruct (proj2 WF _ _ I) as [-> _].
  unfold price_key, price_key_of, key_prefix_asset_source, key_prefix_asset in P.
  rewrite <- !app_assoc, is_prefix_app_head in P. exact (SF _ _ _ _ (NI _ Iv) Iq P).
Qed.

Lemma lookup_refines names st m a : refines names st m -> sep_for names a ->
  lookup_ok m a (get_asset_price false st a).
Proof.
  intros R SF. eapply lookup_ok_ext; [exact (proj2 (proj2 R))|].
  rewrite (unfixed_eq_fixed _ _ (sep_store_sep _ _ _ _ R SF)). apply fixed_lookup_ok, R.
Qed.

Lemma prefix_slash_free p : forall x y, slash_free p = true ->
  is_prefix p (x ++ SLASH :: y) = true -> is_prefix p x = true.
Proof.
  induction p as [|c r IH]; intros x y SFp P; [reflexivity|].
  cbn [slash_free forallb] in SFp. apply andb_true_iff in SFp. destruct SFp as [Nc SFr].
  destruct x as [|d t]; cbn [app is_prefix] in *.
  - apply andb_true_iff in P. destruct P as [P _]. rewrite P in Nc. discriminate.
  - apply andb_true_iff in P. destruct P as [P1 P2]. rewrite P1. cbn. eapply IH; eauto.
Qed.

Lemma sep_forb_sound names a : sep_forb names a = true -> sep_for names a.
Proof.
  unfold sep_forb. intros H a' s' q ts I Iq P.
  apply andb_true_iff in H. destruct H as [SFa H].
  rewrite forallb_forall in H. specialize (H _ I). cbn beta iota in H.
  rewrite forallb_forall in H. specialize (H _ Iq).
  assert (SFq : slash_free q = true) by (destruct Iq as [<-|[<-|[<-|[]]]]; reflexivity).
  assert (P' : is_prefix (a ++ q) (a' ++ s') = true).
  { rewrite app_assoc in P. eapply prefix_slash_free; [|exact P].
    unfold slash_free in *. rewrite forallb_app, SFa, SFq. reflexivity. }
  rewrite P' in H. cbn [negb orb] in H. apply andb_true_iff in H. destruct H as [H1 H2].
  apply beqb_true in H1. split; [exact H1|].
  apply orb_true_iff in H2. destruct H2 as [H2|H2].
  - left. destruct q; [reflexivity|discriminate].
  - right. apply beqb_true, H2.
Qed.

Lemma sepb_sound names : sepb names = true -> sep names.
Proof.
  unfold sepb. intros H a s I. rewrite forallb_forall in H. apply sep_forb_sound. apply (H (a, s) I).
Qed.

Definition ATM : bytes := [65; 84; 77].
Definition ATMe : bytes := [65; 84; 77; 101].
Definition ATMelys : bytes := [65; 84; 77; 101; 108; 121; 115].
Definition LYS : bytes := [108; 121; 115].

(* one registered, active feeder (account 0); block 2 at t = 1 700 000 000; default parameters *)
Definition w_init : state := mkS [] [(0, true)] [] (mkP 86400 1) 2 1700000000.
Definition w_ops : list op := [OFeed 0 (mkF ATMelys BAND 7000000000000000000%Z)].
(* (ATM, elys) and (ATMe, lys) concatenate to the same key *)
Definition w_ops2 : list op :=
  [OFeed 0 (mkF ATM ELYS 1000000000000000000%Z); OFeed 0 (mkF ATMe LYS 2000000000000000000%Z)].

(* non-vacuity of the side condition: an alphabet of ordinary tickers and sources is separated *)
Definition clean_names : list (bytes * bytes) :=
  let assets := [[65;84;79;77]; [85;83;68;67]; [87;66;84;67]; [69;76;89;83]; [79;83;77;79]; [66;84;67]; [69;84;72]] in
  let sources := [ELYS; BAND; [98;105;110;97;110;99;101]; [99;101;120]] in
  flat_map (fun a => map (fun s => (a, s)) sources) assets.

Lemma clean_names_sep : sepb clean_names = true.
Proof. vm_compute. reflexivity. Qed.
