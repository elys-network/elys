(* Proofs about Models/SwapQueue.v (C04): what a settled request does to the balance of every address that is not
   owned by a pool of its route. One effect lemma per layer (send, hop, hop loop); the loops are inverted once.
   At the end the witness of the refuted claim. *)
From Coq Require Import ZArith List Bool Lia.
From Elys Require Import Base.Res Base.Fn Base.ResFacts Models.SwapQueue.
Import ListNotations.
Open Scope Z_scope.

Definition ind (c : bool) (x : Z) : Z := if c then x else 0.

Lemma ind_same a d x : ind (Nat.eqb a a && Nat.eqb d d) x = x.
Proof. rewrite !Nat.eqb_refl. reflexivity. Qed.

Lemma ind_other a a' d d' x : a <> a' \/ d <> d' -> ind (Nat.eqb a a' && Nat.eqb d d') x = 0.
Proof.
  intros [H|H]; apply Nat.eqb_neq in H; rewrite H; [reflexivity|]. rewrite andb_false_r. reflexivity.
Qed.

Lemma ind_nonneg c x : 0 <= x -> 0 <= ind c x.
Proof. unfold ind. destruct c; lia. Qed.

Lemma ind_le c x y : x <= y -> ind c x <= ind c y.
Proof. unfold ind. destruct c; lia. Qed.

Lemma send_eff b f t d x b' : send b f t d x = Ok b' ->
  0 < x /\ x <= b f d /\
  forall a d', b' a d' = b a d' + ind (Nat.eqb a t && Nat.eqb d' d) x - ind (Nat.eqb a f && Nat.eqb d' d) x.
Proof.
  unfold send. destruct (Z.leb_spec x 0); [discriminate|]. destruct (Z.ltb_spec (b f d) x); [discriminate|].
  intros E. injection E as <-. split; [assumption|]. split; [assumption|]. intros a d'.
  rewrite upd2_add. unfold Z.sub at 1. rewrite upd2_add. unfold ind. destruct (Nat.eqb a f && Nat.eqb d' d); lia.
Qed.

Definition nonsys1 (e : env) (p a : nat) : Prop := a <> e_pool e p /\ a <> e_treas e p /\ a <> e_rev e p.
Definition nonsys (e : env) (ps : list nat) (a : nat) : Prop := forall p, In p ps -> nonsys1 e p a.

Lemma role_nonsys e p a r : nonsys1 e p a -> a <> role_addr e p r.
Proof. intros (H1 & H2 & H3). destruct r; cbn; assumption. Qed.

Lemma nonsys_cons e p ps a : nonsys e (p :: ps) a -> nonsys1 e p a /\ nonsys e ps a.
Proof. intros H. split; [apply H; left; reflexivity|]. intros q Hq. apply H. right. exact Hq. Qed.

Lemma sys_sends_eff e p a : nonsys1 e p a -> forall l b b', sys_sends e p b l = Ok b' -> forall d, b' a d = b a d.
Proof.
  intros NS. induction l as [|[[[rf rt] dd] x] l IH]; intros b b' H d; cbn in H.
  - injection H as <-. reflexivity.
  - apply bind_ok in H. destruct H as (b1 & H1 & H2). apply send_eff in H1. destruct H1 as (_ & _ & H1).
    rewrite (IH _ _ H2 d), H1, !ind_other by (left; apply role_nonsys, NS). lia.
Qed.

(* UpdatePoolForSwap, seen from an address that is not the pool's: the input leaves the sender, the output and a
   positive bonus reach the hop's recipient *)
Lemma do_hop_eff e b s to p din ain dout aout c b' :
  do_hop e b s to p din ain dout aout c = Ok b' ->
  0 < ain /\ 0 < aout /\ ain <= b s din /\
  forall a, nonsys1 e p a ->
  forall d, b' a d = b a d - ind (Nat.eqb a s && Nat.eqb d din) ain
                       + ind (Nat.eqb a to && Nat.eqb d dout) aout + ind (Nat.eqb a to && Nat.eqb d dout) (Z.max 0 (h_bonus c)).
Proof.
  intros H. unfold do_hop in H.
  apply bind_ok in H. destruct H as (b1 & H1 & H).
  apply bind_ok in H. destruct H as (b2 & H2 & H).
  apply bind_ok in H. destruct H as (b3 & H3 & H).
  apply bind_ok in H. destruct H as (b4 & H4 & H).
  destruct (h_fail_post c); [discriminate|]. injection H as <-.
  apply send_eff in H1. destruct H1 as (P1 & Q1 & H1).
  apply send_eff in H2. destruct H2 as (P2 & _ & H2).
  split; [exact P1|]. split; [exact P2|]. split; [exact Q1|]. intros a NS d.
  assert (E4 : b4 a d = b3 a d + ind (Nat.eqb a to && Nat.eqb d dout) (Z.max 0 (h_bonus c))).
  { destruct (Z.ltb_spec 0 (h_bonus c)).
    - apply send_eff in H4. destruct H4 as (_ & _ & H4).
      rewrite H4, (ind_other a (e_treas e p)), Z.max_r by (lia || left; apply NS). lia.
    - injection H4 as <-. rewrite Z.max_l by lia. unfold ind. destruct (_ && _); lia. }
  rewrite E4, (sys_sends_eff e p a NS _ _ _ H3), H2, H1, !(ind_other a (e_pool e p)) by (left; apply NS). lia.
Qed.

Fixpoint in_bonus (s rc : nat) (hops : list (nat * nat)) (cs : list hopc) (a d : nat) : Z :=
  match hops, cs with
  | (p, dout) :: rest, c :: cs' =>
      let to := if is_nil rest then rc else s in
      ind (Nat.eqb a to && Nat.eqb d dout) (Z.max 0 (h_bonus c)) + in_bonus s rc rest cs' a d
  | _, _ => 0
  end.

Fixpoint last_out (hops : list (nat * nat)) (cs : list hopc) (d0 : nat) (a0 : Z) : nat * Z :=
  match hops, cs with
  | (p, dout) :: rest, c :: cs' => last_out rest cs' dout (h_amt c)
  | _, _ => (d0, a0)
  end.

(* one turn of the hop loop of RouteExactAmountIn *)
Lemma in_loop_cons e s rc p dout rest cs lim din ain b b' :
  in_loop e s rc ((p, dout) :: rest) cs lim din ain b = Ok b' ->
  exists c cs' b1, cs = c :: cs' /\ 0 < h_amt c /\ (if is_nil rest then lim else 1) <= h_amt c /\
    do_hop e b s (if is_nil rest then rc else s) p din ain dout (h_amt c) c = Ok b1 /\
    in_loop e s rc rest cs' lim dout (h_amt c) b1 = Ok b'.
Proof.
  cbn [in_loop]. destruct cs as [|c cs']; [discriminate|].
  destruct (Nat.eqb din dout); [discriminate|]. destruct (h_fail_pre c); [discriminate|].
  destruct (Z.leb_spec (h_amt c) 0); [discriminate|].
  destruct (Z.ltb_spec (h_amt c) (if is_nil rest then lim else 1)); [discriminate|].
  intros E. apply bind_ok in E. destruct E as (b1 & H1 & H2). exists c, cs', b1. auto.
Qed.

(* every hop but the last pays the sender what the next hop takes from it: the intermediate amounts cancel *)
Lemma in_loop_spec e s rc lim : forall hops cs din ain b b',
  hops <> [] -> in_loop e s rc hops cs lim din ain b = Ok b' ->
  let (dl, al) := last_out hops cs din ain in
  lim <= al /\ 0 < al /\ 0 < ain /\ ain <= b s din /\
  forall a, nonsys e (map fst hops) a ->
  forall d, b' a d = b a d - ind (Nat.eqb a s && Nat.eqb d din) ain + ind (Nat.eqb a rc && Nat.eqb d dl) al
                    + in_bonus s rc hops cs a d.
Proof.
  induction hops as [|[p dout] rest IH]; intros cs din ain b b' NE H; [congruence|].
  apply in_loop_cons in H. destruct H as (c & cs' & b1 & -> & A0 & A1 & H1 & H2).
  apply do_hop_eff in H1. destruct H1 as (F1 & _ & F2 & H1). cbn [last_out in_bonus].
  destruct rest as [|h2 rest]; cbn [is_nil] in A1, H1.
  - cbn in H2. injection H2 as <-. cbn. repeat (split; [assumption|]). intros a NS d.
    rewrite (H1 a (proj1 (nonsys_cons _ _ _ _ NS)) d). lia.
  - specialize (IH _ _ _ _ _ ltac:(discriminate) H2). destruct (last_out (h2 :: rest) cs' dout (h_amt c)) as [dl al].
    destruct IH as (G1 & G2 & _ & _ & G).
    repeat (split; [assumption|]). intros a NS d. apply nonsys_cons in NS. destruct NS as (NS1 & NSr).
    rewrite (G a NSr d), (H1 a NS1 d). cbn [is_nil]. lia.
Qed.

Lemma in_bonus_nonneg s rc : forall hops cs a d, 0 <= in_bonus s rc hops cs a d.
Proof.
  induction hops as [|[p dout] rest IH]; intros [|c cs'] a d; cbn; try lia.
  apply Z.add_nonneg_nonneg; [apply ind_nonneg, Z.le_max_l|apply IH].
Qed.

Lemma in_bonus_none s rc : forall hops cs a d, Forall (fun c => h_bonus c <= 0) cs -> in_bonus s rc hops cs a d = 0.
Proof.
  induction hops as [|[p dout] rest IH]; intros [|c cs'] a d F; cbn; try reflexivity.
  inversion F; subst. rewrite IH by assumption. rewrite Z.max_l by lia. unfold ind. destruct (_ && _); reflexivity.
Qed.

(* whoever is not the sender gets a bonus only as the recipient, from the last hop and in the denom leaving it:
   every earlier hop pays the sender, whatever pool it uses *)
Lemma in_bonus_other s rc a : a <> s -> forall hops cs din ain d,
  a <> rc \/ d <> fst (last_out hops cs din ain) -> in_bonus s rc hops cs a d = 0.
Proof.
  intros Hs. induction hops as [|[p dout] rest IH]; intros [|c cs'] din ain d Hd; cbn; try reflexivity.
  cbn [last_out] in Hd. rewrite (IH _ _ _ _ Hd), ind_other; [reflexivity|].
  destruct rest; [exact Hd|left; exact Hs].
Qed.

Definition in_out_denom (r : req) (c : choice) : nat := fst (last_out (r_hops r) (c_hops c) (r_denom r) (r_amt r)).
Definition in_out_amt (r : req) (c : choice) : Z := snd (last_out (r_hops r) (c_hops c) (r_denom r) (r_amt r)).
Definition req_bonus (r : req) (c : choice) : nat -> nat -> Z := in_bonus (r_sender r) (r_rcpt r) (r_hops r) (c_hops c).
Definition route_pools (r : req) : list nat := map fst (r_hops r).

(* one turn of the hop loop of RouteExactAmountOut: the hop pays out the next hop's expected input, the last one
   the requested amount *)
Lemma out_loop_cons e coded s rc p din rest cs lim ins dfin afin b b' :
  out_loop e coded s rc ((p, din) :: rest) cs lim ins dfin afin b = Ok b' ->
  exists c cs' dout aout ins' b1, cs = c :: cs' /\
    match rest with
    | [] => dout = dfin /\ aout = afin
    | (_, din2) :: _ => dout = din2 /\ ins = aout :: ins'
    end /\
    0 < h_amt c <= lim /\
    do_hop e b s (out_to coded (is_nil rest) s rc) p din (h_amt c) dout aout c = Ok b1 /\
    out_loop e coded s rc rest cs' aout ins' dfin afin b1 = Ok b'.
Proof.
  cbn [out_loop]. destruct cs as [|c cs']; [discriminate|].
  match goal with |- match ?n with _ => _ end = _ -> _ => destruct n as [[[dout aout] ins']|] eqn:En; [|discriminate] end.
  destruct (Nat.eqb din dout); [discriminate|]. destruct (h_fail_pre c); [discriminate|].
  destruct (Z.leb_spec (h_amt c) 0); [discriminate|]. destruct (Z.ltb_spec lim (h_amt c)); [discriminate|].
  intros E. apply bind_ok in E. destruct E as (b1 & H1 & H2). exists c, cs', dout, aout, ins', b1.
  split; [reflexivity|]. split; [|auto].
  destruct rest as [|[p2 din2] rest]; [|destruct ins; [discriminate|]]; injection En as <- <- <-; auto.
Qed.

Lemma out_loop_third e coded s rc a dfin afin : a <> s -> a <> rc -> forall hops cs lim ins b b',
  nonsys e (map fst hops) a ->
  out_loop e coded s rc hops cs lim ins dfin afin b = Ok b' -> forall d, b' a d = b a d.
Proof.
  intros Hs Hr. induction hops as [|[p din] rest IH]; intros cs lim ins b b' NS H d.
  - cbn in H. injection H as <-. reflexivity.
  - apply out_loop_cons in H. destruct H as (c & cs' & dout & aout & ins' & b1 & _ & _ & _ & H1 & H2).
    apply nonsys_cons in NS. destruct NS as (NS1 & NSr).
    apply do_hop_eff in H1. destruct H1 as (_ & _ & _ & H1).
    assert (Ht : a <> out_to coded (is_nil rest) s rc) by (unfold out_to; destruct (is_nil rest); [|destruct coded]; assumption).
    rewrite (IH _ _ _ _ _ NSr H2 d), (H1 a NS1 d), !ind_other by (left; assumption). lia.
Qed.

(* Every address outside the pools: it loses at most the maximum, in the first hop's input denom and only when it is
   the sender, and (when it is the recipient) gains at least the requested output. For the sender of a route of
   several hops this needs the intermediate outputs to be paid to the sender: then each of them covers the next
   hop's input, which the loop has bounded by it. *)
Lemma out_loop_bound e coded s rc a dfin afin : forall hops cs lim ins b b',
  hops <> [] -> nonsys e (map fst hops) a ->
  out_loop e coded s rc hops cs lim ins dfin afin b = Ok b' ->
  length hops = 1%nat \/ (a = s -> out_to coded false s rc = s) ->
  forall d, b a d - ind (Nat.eqb a s && Nat.eqb d (match hops with (_, din) :: _ => din | [] => 0%nat end)) lim
                  + ind (Nat.eqb a rc && Nat.eqb d dfin) afin <= b' a d.
Proof.
  induction hops as [|[p din] rest IH]; intros cs lim ins b b' NE NS H Pol d; [congruence|].
  apply out_loop_cons in H. destruct H as (c & cs' & dout & aout & ins' & b1 & -> & En & A & H1 & H2).
  apply nonsys_cons in NS. destruct NS as (NS1 & NSr).
  apply do_hop_eff in H1. destruct H1 as (_ & P & _ & H1). specialize (H1 a NS1 d).
  pose proof (ind_le (Nat.eqb a s && Nat.eqb d din) _ _ (proj2 A)) as Hin.
  pose proof (ind_nonneg (Nat.eqb a (out_to coded (is_nil rest) s rc) && Nat.eqb d dout) _ (Z.le_max_l 0 (h_bonus c))) as Hb.
  destruct rest as [|[p2 din2] rest]; destruct En as [-> ->]; cbn [is_nil] in H1, Hb.
  - cbn in H2. injection H2 as <-. cbn [out_to] in H1, Hb. lia.
  - destruct Pol as [Pol|Pol]; [discriminate|].
    pose proof (IH _ _ _ _ _ ltac:(discriminate) NSr H2 (or_intror Pol) d) as G. rewrite H1 in G.
    destruct (Nat.eq_dec a s) as [E|N].
    + rewrite (Pol E) in G, Hb. lia.
    + pose proof (ind_nonneg (Nat.eqb a (out_to coded false s rc) && Nat.eqb d din2) aout ltac:(lia)).
      rewrite (ind_other a s d din2) in G by (left; exact N). lia.
Qed.

Definition out_in_denom (r : req) : nat := match r_hops r with (_, din) :: _ => din | [] => 0%nat end.

Lemma settle_gen_inv coded e b r c b' : settle_gen coded e b r c = Ok b' ->
  r_hops r <> [] /\
  match r_kind r with
  | KIn => in_loop e (r_sender r) (r_rcpt r) (r_hops r) (c_hops c) (r_limit r) (r_denom r) (r_amt r) b
  | KOut => out_loop e coded (r_sender r) (r_rcpt r) (r_hops r) (c_hops c) (r_limit r) (tl (c_ins c)) (r_denom r) (r_amt r) b
  end = Ok b'.
Proof.
  unfold settle_gen, apply_in, apply_out_gen. intros H.
  destruct (r_kind r), (c_fail c), (r_hops r); try discriminate; cbn [is_nil] in H.
  - split; [discriminate|exact H].
  - destruct (negb _); [discriminate|]. split; [discriminate|exact H].
Qed.

Definition out_sender_bound (b b' : bank) (r : req) : Prop :=
  forall d, b (r_sender r) d - ind (Nat.eqb d (out_in_denom r)) (r_limit r)
            + ind (Nat.eqb (r_sender r) (r_rcpt r) && Nat.eqb d (r_denom r)) (r_amt r) <= b' (r_sender r) d.

(* the sender: single-hop routes, sender = recipient, or intermediate outputs routed to the sender *)
Theorem exact_out_sender coded e b r c b' :
  r_kind r = KOut -> settle_gen coded e b r c = Ok b' -> nonsys e (route_pools r) (r_sender r) ->
  length (r_hops r) = 1%nat \/ coded = false \/ r_sender r = r_rcpt r ->
  out_sender_bound b b' r.
Proof.
  intros K H NS Pol d. destruct (settle_gen_inv _ _ _ _ _ _ H) as (NE & L). rewrite K in L.
  pose proof (out_loop_bound _ _ _ _ _ _ _ _ _ _ _ _ _ NE NS L) as G. rewrite Nat.eqb_refl in G. apply G.
  destruct Pol as [Len|[->| <-]]; [left; exact Len|right..]; intros _; [reflexivity|destruct coded; reflexivity].
Qed.

(* on its exact-in branch SwapByDenom forwarded the Recipient before fix: f444cb8 as well *)
Lemma by_denom_exact_in_recipient fwd r : r_kind r = KIn -> msg_req_gen fwd (MByDenom r) = r.
Proof. intros K. cbn. rewrite K. reflexivity. Qed.

(* refutation witness. The numbers are those of the real application (harness corpus entry 0): exact-out
   uatom -> uusdc -> uelys, sender 1, recipient 2: the sender pays 1806607 uatom (<= max) AND 9013258 uusdc from its own wallet. *)
Definition wit_env : env := mkEnv (fun p => 100 + p)%nat (fun p => 200 + p)%nat (fun p => 300 + p)%nat (fun _ => false).
Definition wit_bank : bank := fun a d =>
  if Nat.eqb a 1 then 1000000000000 else if Nat.eqb a 101 then 100000000000 else if Nat.eqb a 102 then 30000000000 else 0.
Definition wit_req : req := mkReq 1 KOut 1 2 [(1, 0); (2, 1)]%nat 2 1000000 10000000 [] [].
Definition wit_choice : choice := mkCh false [1806607; 9017320]
  [mkHop false 1806607 [] 0 false; mkHop false 9013258 [] 0 false].
