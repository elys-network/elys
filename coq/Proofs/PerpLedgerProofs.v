From Coq Require Import ZArith List Lia.
From Elys Require Import Base.Res Base.ResFacts Base.Fn Proofs.SumLedgerProofs Models.PerpLedger Proofs.PerpLedgerFrame.
Import ListNotations.
Open Scope Z_scope.

Section Fields.
Variable fields : list nat.

Definition PInv (s : perp) : Prop :=
  NoDup (live s) /\ cnt s = Z.of_nat (length (live s)) /\
  (forall f, agg s f = sumf (pp s f) (live s)) /\
  (forall f k, ~ In k (live s) -> pp s f k = 0) /\
  (forall f k, ~ In f fields -> pp s f k = 0) /\
  (forall f k, 0 <= pp s f k).

Lemma pstep_inv s o s' : PInv s -> pstep fields s o = Ok s' -> PInv s'.
Proof.
  intros (ND & HC & HA & HZ & HU & HP) H. apply pstep_ok in H. destruct o as [k|k f d|k].
  - destruct H as (Hn & ->). unfold PInv. cbn [live cnt agg pp].
    split; [constructor; assumption|]. split; [cbn [length]; rewrite HC; lia|].
    split; [|split; [|split; [exact HU|exact HP]]].
    + intros f. cbn [sumf]. rewrite HA, (HZ f k Hn). lia.
    + intros f x Hx. apply HZ. intros Hin. apply Hx. right. exact Hin.
  - destruct H as (G1 & G2 & N & ->). unfold PInv. cbn [live cnt agg pp].
    split; [exact ND|]. split; [exact HC|]. split; [|split; [|split]].
    + intros g. rewrite upd_add, HA. symmetry. apply (sumf_point _ _ k); auto.
      intros x. rewrite upd2_add. destruct (Nat.eqb g f), (Nat.eqb x k); reflexivity.
    + intros g x Hx. rewrite upd2_other; [apply HZ; exact Hx|]. right. intros ->. contradiction.
    + intros g x Hg. rewrite upd2_other; [apply HU; exact Hg|]. left. intros ->. contradiction.
    + intros g x. rewrite upd2_add. specialize (HP g x).
      destruct (Nat.eqb_spec g f) as [->|], (Nat.eqb_spec x k) as [->|]; cbn; lia.
  - destruct H as (G & Hz & ->). unfold PInv. cbn [live cnt agg pp].
    assert (Hk : forall f, pp s f k = 0).
    { intros f. destruct (in_dec Nat.eq_dec f fields) as [Hi|Ho]; [apply Hz; exact Hi|apply HU; exact Ho]. }
    split; [apply remove_key_NoDup, ND|]. split; [rewrite HC, (remove_key_length k (live s) G); lia|].
    split; [|split; [|split; [exact HU|exact HP]]].
    + intros f. rewrite HA, (remove_key_sum (pp s f) k) by exact G. rewrite Hk. lia.
    + intros f x Hx. rewrite (remove_key_In _ _ _ ND) in Hx. destruct (Nat.eq_dec x k) as [->|Ne]; [apply Hk|].
      apply HZ. tauto.
Qed.

Theorem prun_inv h : forall s, PInv s -> PInv (prun fields s h).
Proof.
  intros s. apply (txs_inv PInv (fun _ => True) (pstep fields) (psteps fields) (fun _ => eq_refl) (fun _ _ _ => eq_refl)).
  - intros s1 o s2 _. apply pstep_inv.
  - apply Forall_Forall_in. auto.
Qed.

Lemma perp_empty_inv : PInv perp_empty.
Proof.
  unfold PInv, perp_empty; cbn. split; [constructor|]. repeat split; try reflexivity; try lia.
Qed.

End Fields.
