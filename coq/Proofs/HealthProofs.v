(* C10: monotonicity of the two health formulas (Models/Health.v) and the guard comparisons `health <= safety factor` /
   `health > safety factor` restated on the underlying quantities (cross-multiplied integer statements). *)
From Coq Require Import ZArith Lia.
From Elys Require Import Base.Res Base.Zdec Models.Health.
Open Scope Z_scope.

(* Quo on whole amounts: v.ToLegacyDec().Quo(d.ToLegacyDec()) *)
Definition ratio (v d : Z) : Z := dquo (dec_of_int v) (dec_of_int d).

Lemma ratio_bounds v d : 0 <= v -> 0 < d ->
  0 <= ratio v d /\
  v * (PREC * PREC) - d - HALF * d < ratio v d * PREC * d /\
  ratio v d * PREC * d <= v * (PREC * PREC) + HALF * d.
Proof.
  intros Hv Hd. pose proof PREC_pos as HP.
  destruct (dquo_bounds (v * PREC) (d * PREC)) as (R0 & R1 & R2); [nia..|]. change (dquo (v * PREC) (d * PREC)) with (ratio v d) in *.
  split; [exact R0|]. split; [apply Z.mul_lt_mono_pos_r with (p := PREC)|apply Z.mul_le_mono_pos_r with (p := PREC)]; lia.
Qed.

Lemma ratio_mono v1 v2 d1 d2 : 0 <= v1 <= v2 -> 0 < d2 <= d1 -> ratio v1 d1 <= ratio v2 d2.
Proof. intros Hv Hd. pose proof PREC_pos. apply dquo_mono; unfold dec_of_int; nia. Qed.

(* health <= sf / health > sf in terms of value and debt: the middle statement is exact because Quo of
   sf * d by d is sf, and Quo is monotone *)
Lemma ratio_vs_sf v d sf : 0 <= v -> 0 < d ->
  (ratio v d <= sf -> v * (PREC * PREC) < (sf * PREC + HALF + 1) * d) /\
  (v * PREC <= sf * d -> ratio v d <= sf) /\
  (sf < ratio v d -> sf * d < v * PREC).
Proof.
  intros Hv Hd. pose proof PREC_pos as HP.
  assert (M : v * PREC <= sf * d -> ratio v d <= sf).
  { intros H. rewrite <- (dquo_exact (sf * d) (dec_of_int d) sf) by (unfold dec_of_int; nia).
    apply dquo_mono; unfold dec_of_int; nia. }
  split; [|split; [exact M|lia]].
  intros H. destruct (ratio_bounds v d Hv Hd) as (_ & R1 & _).
  assert (ratio v d * (PREC * d) <= sf * (PREC * d)) by (apply Z.mul_le_mono_nonneg_r; nia). lia.
Qed.

Lemma lev_health_pos_debt exit debt : debt <> 0 -> lev_health exit debt = ratio exit debt.
Proof. intros H. unfold lev_health. apply Z.eqb_neq in H. rewrite H. reflexivity. Qed.

Lemma lev_health_mono e1 e2 d1 d2 : 0 <= e1 <= e2 -> 0 < d2 <= d1 -> lev_health e1 d1 <= lev_health e2 d2.
Proof. intros He Hd. rewrite !lev_health_pos_debt by lia. apply ratio_mono; assumption. Qed.

(* the regular case: liabilities, custody and the amount owed in the base currency are positive; c = custody value in the base
   currency (LONG: the swap estimate, SHORT: the custody itself), tl = owed in the base currency (LONG: liabilities + unpaid
   interest, SHORT: the swap estimate of that amount) *)
Lemma perp_health_regular (long : bool) liab unpaid custody el ec c tl :
  liab <> 0 -> 0 < custody -> 0 < tl ->
  (if long then tl = liab + unpaid /\ ec = Some c else el = Some tl /\ c = custody) ->
  perp_health long liab unpaid custody el ec = Ok (ratio c tl).
Proof.
  intros Hl Hc Ht H. unfold perp_health. apply Z.eqb_neq in Hl. rewrite Hl.
  assert (Hc' : (0 <? custody) = true) by (apply Z.ltb_lt; exact Hc).
  assert (Ht' : (tl =? 0) = false) by (apply Z.eqb_neq; lia).
  destruct long; destruct H as [H1 H2].
  - rewrite H2, <- H1. cbn [bind negb andb]. rewrite Hc'. cbn [negb bind]. rewrite Ht'. reflexivity.
  - rewrite H1, H2. cbn [bind negb andb]. rewrite Ht', Hc'. cbn [negb bind]. reflexivity.
Qed.

Lemma perp_health_mono (long : bool) liab u1 u2 k1 k2 el1 el2 ec1 ec2 c1 c2 t1 t2 h1 h2 :
  liab <> 0 -> 0 < k1 -> 0 < k2 -> 0 <= c1 <= c2 -> 0 < t2 <= t1 ->
  (if long then t1 = liab + u1 /\ ec1 = Some c1 else el1 = Some t1 /\ c1 = k1) ->
  (if long then t2 = liab + u2 /\ ec2 = Some c2 else el2 = Some t2 /\ c2 = k2) ->
  perp_health long liab u1 k1 el1 ec1 = Ok h1 -> perp_health long liab u2 k2 el2 ec2 = Ok h2 -> h1 <= h2.
Proof.
  intros Hl K1 K2 Hc Ht R1 R2 H1 H2.
  rewrite (perp_health_regular long liab u1 k1 el1 ec1 c1 t1) in H1 by (assumption || lia).
  rewrite (perp_health_regular long liab u2 k2 el2 ec2 c2 t2) in H2 by (assumption || lia).
  injection H1 as <-. injection H2 as <-. apply ratio_mono; assumption.
Qed.

Lemma perp_health_mono_value (long : bool) liab unpaid custody el ec1 ec2 c1 c2 tl h1 h2 :
  liab <> 0 -> 0 < custody -> 0 < tl -> 0 <= c1 <= c2 ->
  (if long then tl = liab + unpaid /\ ec1 = Some c1 /\ ec2 = Some c2 else False) ->
  perp_health long liab unpaid custody el ec1 = Ok h1 -> perp_health long liab unpaid custody el ec2 = Ok h2 -> h1 <= h2.
Proof.
  intros Hl Hc Ht Hcc H. destruct long; [|contradiction]. destruct H as (E & E1 & E2).
  apply (perp_health_mono true liab unpaid unpaid custody custody el el ec1 ec2 c1 c2 tl tl); auto; lia.
Qed.
