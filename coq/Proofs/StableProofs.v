(* Proofs about Models/Stable.v (C07). The vault rounds three times: the stored rate, the shares minted,
   the amount redeemed. Each gets its exact bounds cleared of divisions (PREC and HALF stay atoms); every
   inequality of C07 is then a combination of products of those bounds, named where it is used. After
   them the cap decision and the handlers. *)
From Coq Require Import ZArith List Bool Lia.
From Elys Require Import Base.Res Base.Zdec Base.ResFacts Base.ListFacts Models.Stable.
Import ListNotations.
Open Scope Z_scope.

Lemma PREC_gt_3 : 3 < PREC. Proof. reflexivity. Qed.

Lemma rate_of_pos tv sup : 0 < sup -> rate_of tv sup = dquo (dec_of_int tv) (dec_of_int sup).
Proof. intros H. unfold rate_of. destruct (Z.eqb_spec sup 0); [lia|reflexivity]. Qed.

Lemma rate_bounds tv sup : 0 <= tv -> 0 < sup ->
  2 * tv * PREC * PREC - 2 * sup - PREC * sup < 2 * rate_of tv sup * sup * PREC /\
  2 * rate_of tv sup * sup <= 2 * tv * PREC + sup /\ 0 <= rate_of tv sup.
Proof.
  intros Ht Hs. rewrite rate_of_pos by exact Hs. pose proof PREC_pos as PP.
  destruct (dquo_bounds (dec_of_int tv) (dec_of_int sup)) as (B0 & B1 & B2); [unfold dec_of_int; nia..|].
  unfold dec_of_int in B1, B2. set (r := dquo _ _) in *. clearbody r. rewrite <- HALF_PREC in *.
  split; [|split; [|exact B0]].
  - apply Z.mul_lt_mono_pos_r with (p := HALF); lia.
  - apply Z.mul_le_mono_pos_r with (p := HALF * HALF); nia.
Qed.

Lemma rate_mono tv1 s1 tv2 s2 : 0 <= tv1 -> 0 < s1 -> 0 <= tv2 -> 0 < s2 ->
  tv1 * s2 <= tv2 * s1 -> rate_of tv1 s1 <= rate_of tv2 s2.
Proof.
  intros. rewrite !rate_of_pos by assumption. pose proof PREC_pos.
  apply dquo_mono_ratio; unfold dec_of_int; nia.
Qed.

Lemma rate_ge_one tv sup : 0 < sup -> sup <= tv -> PREC <= rate_of tv sup.
Proof.
  intros Hs Ht. rewrite rate_of_pos by exact Hs. pose proof PREC_pos.
  apply dquo_ge_one. unfold dec_of_int. nia.
Qed.

Lemma rate_of_self a : 0 < a -> rate_of a a = PREC.
Proof. intros H. rewrite rate_of_pos by exact H. pose proof PREC_pos. apply dquo_self. unfold dec_of_int. nia. Qed.

(* sh = RoundInt(Quo(a, r)) at a positive rate r *)
Lemma shares_bounds tv sup a : 0 <= a -> 0 < rate_of tv sup ->
  2 * bond_shares tv sup a * PREC * PREC * rate_of tv sup
    <= 2 * a * PREC * PREC * PREC + PREC * rate_of tv sup + PREC * PREC * rate_of tv sup /\
  2 * a * PREC * PREC * PREC - 2 * rate_of tv sup - PREC * rate_of tv sup - PREC * PREC * rate_of tv sup
    < 2 * bond_shares tv sup a * PREC * PREC * rate_of tv sup /\
  0 <= bond_shares tv sup a.
Proof.
  intros Ha Hr. unfold bond_shares, bond_rate. destruct (Z.eqb_spec (rate_of tv sup) 0); [lia|].
  set (r := rate_of tv sup) in *. clearbody r. pose proof PREC_pos as PP.
  destruct (dquo_bounds (dec_of_int a) r) as (B0 & B1 & B2); [unfold dec_of_int; nia|exact Hr|].
  destruct (chop_round_bounds _ B0) as [[C1 C2] C3]. unfold round_int, dec_of_int in *.
  set (q := dquo _ _) in *. set (sh := chop_round q) in *. clearbody q sh. rewrite <- HALF_PREC in *.
  pose proof (Z.mul_le_mono_nonneg_r _ _ (HALF * r) ltac:(nia) C1).
  pose proof (Z.mul_le_mono_nonneg_r _ _ (HALF * r) ltac:(nia) C2).
  lia.
Qed.

(* Quo and RoundInt are monotone, and exact at rate 1 *)
Lemma shares_le_amount tv sup a : 0 <= a -> PREC <= rate_of tv sup -> 0 <= bond_shares tv sup a <= a.
Proof.
  intros Ha R. pose proof PREC_pos. unfold bond_shares, bond_rate, round_int, dec_of_int.
  destruct (Z.eqb_spec (rate_of tv sup) 0); [lia|]. set (r := rate_of tv sup) in *.
  pose proof (dquo_nonneg (a * PREC) r ltac:(nia) ltac:(lia)) as Q0.
  pose proof (dquo_mono (a * PREC) r (a * PREC) PREC ltac:(nia) ltac:(lia)) as Q. rewrite dquo_one_r in Q.
  split; [apply chop_round_bounds, Q0|].
  apply Z.le_trans with (chop_round (a * PREC)); [apply chop_round_mono; lia|rewrite chop_round_mult; lia].
Qed.

(* p = RoundInt(sh * r): sh.ToLegacyDec().Mul(r) is exact, no rounding happens in Unbond before the final RoundInt *)
Lemma payout_bounds tv sup sh : 0 <= sh -> 0 <= rate_of tv sup ->
  2 * sh * rate_of tv sup - PREC <= 2 * unbond_payout tv sup sh * PREC <= 2 * sh * rate_of tv sup + PREC /\
  0 <= unbond_payout tv sup sh.
Proof.
  intros Hs Hr. unfold unbond_payout, dec_of_int, round_int. rewrite dmul_int_l.
  destruct (chop_round_bounds (sh * rate_of tv sup) ltac:(nia)) as [C1 C3]. pose proof HALF_PREC. lia.
Qed.

(* Bond of [a] at (tv, sup), code rate r > 0, minting sh shares. The sup pre-existing shares were worth
   tv; afterwards they are worth sup*(tv+a)/(sup+sh) (exact rational). Their loss is
   (tv*sh - sup*a)/(sup+sh) <= [sup/(sup+sh)] * bond_slack r sh / (2 P^2)
                             ~ [sup/(sup+sh)] * (rate/2 + sh/(2*10^18)). *)
Lemma bond_others_value tv sup a : 0 <= tv -> 0 < sup -> 0 < rate_of tv sup -> 0 <= a ->
  0 <= bond_shares tv sup a /\
  2 * PREC * PREC * (tv * bond_shares tv sup a - sup * a) <= sup * bond_slack (rate_of tv sup) (bond_shares tv sup a).
Proof.
  intros Ht Hs Hr Ha. destruct (rate_bounds tv sup Ht Hs) as (R1 & _). pose proof PREC_pos as PP.
  destruct (shares_bounds tv sup a Ha Hr) as (S1 & _ & S3). split; [exact S3|]. unfold bond_slack.
  (* P times the claim is (lower rate bound) * sh * P + (upper share bound) * sup *)
  pose proof (Z.mul_le_mono_nonneg_r _ _ (bond_shares tv sup a * PREC) ltac:(nia) (Z.lt_le_incl _ _ R1)).
  pose proof (Z.mul_le_mono_nonneg_r _ _ sup ltac:(lia) S1).
  apply Z.mul_le_mono_pos_l with (p := PREC); lia.
Qed.

(* Unbond of sh shares at (tv, sup): the payout exceeds the exact pro-rata value sh*tv/sup by at most
   unbond_slack sh / (2 P) = 1/2 + sh/(2*10^18); this is exactly what the remaining shares lose. *)
Lemma unbond_others_value tv sup sh : 0 <= tv -> 0 < sup -> 0 <= sh ->
  0 <= unbond_payout tv sup sh /\
  2 * PREC * (unbond_payout tv sup sh * sup - sh * tv) <= sup * unbond_slack sh /\
  (* and the redeemer is not short-changed by more than that + sh/10^36 *)
  2 * PREC * PREC * (sh * tv - unbond_payout tv sup sh * sup) <= sup * (PREC * PREC + (PREC + 2) * sh).
Proof.
  intros Ht Hs Hsh. destruct (rate_bounds tv sup Ht Hs) as (R1 & R2 & R3). pose proof PREC_pos as PP.
  destruct (payout_bounds tv sup sh Hsh R3) as [[P1 P2] P3]. split; [exact P3|]. unfold unbond_slack.
  pose proof (Z.mul_le_mono_nonneg_r _ _ sh Hsh R2).
  pose proof (Z.mul_le_mono_nonneg_r _ _ sup ltac:(lia) P2).
  pose proof (Z.mul_le_mono_nonneg_r _ _ sh Hsh (Z.lt_le_incl _ _ R1)).
  pose proof (Z.mul_le_mono_nonneg_r _ _ (sup * PREC) ltac:(nia) P1).
  split; lia.
Qed.

(* Deposit a, then immediately redeem the shares just minted. NO bound on the size of the vault,
   of the deposit or of the rate is needed:
      payout - a  <=  (rate/2) * (1 + 10^-18 + 2*10^-36) + 1/2.
   sh shares are minted at rate r and redeemed at the new rate r' for p. If r' <= r the payout is bounded through
   the share bound at r; if the rate went UP, the deposit raised the value per share, which bounds the shares it
   bought, and the payout through the upper bound of r' *)
Lemma roundtrip_explicit tv sup a : 0 <= tv -> 0 < sup -> 0 < rate_of tv sup -> 0 <= a ->
  let r := rate_of tv sup in
  let sh := bond_shares tv sup a in
  let p := unbond_payout (tv + a) (sup + sh) sh in
  2 * PREC * PREC * PREC * (p - a) <= r * (PREC * PREC + PREC + 2) + PREC * PREC * PREC.
Proof.
  intros Ht Hs Hr Ha. cbv zeta. pose proof PREC_pos as HP. destruct (shares_bounds tv sup a Ha Hr) as (Sup & Slo & Hsh).
  set (sh := bond_shares tv sup a) in *.
  destruct (rate_bounds (tv + a) (sup + sh) ltac:(lia) ltac:(lia)) as (_ & Rup & Hr').
  destruct (payout_bounds (tv + a) (sup + sh) sh Hsh Hr') as [[_ Pay] _].
  pose proof (fun M => rate_mono (tv + a) (sup + sh) tv sup ltac:(lia) ltac:(lia) Ht Hs M) as Mono.
  set (r := rate_of tv sup) in *. set (r' := rate_of (tv + a) (sup + sh)) in *. set (p := unbond_payout _ _ _) in *.
  clearbody sh r r' p. assert (PP : 0 <= PREC * PREC) by nia.
  pose proof (Z.mul_le_mono_nonneg_r _ _ (PREC * PREC) PP Pay) as Pay2.
  destruct (Z_le_gt_dec r' r) as [Le|Gt].
  - pose proof (Z.mul_le_mono_nonneg_l _ _ (sh * (PREC * PREC)) ltac:(nia) Le). lia.
  - assert (NM : tv * (sup + sh) < (tv + a) * sup) by lia.
    pose proof (Z.mul_le_mono_nonneg_r _ _ sh Hsh Rup) as A2.
    assert (A4 : 2 * r' * sh < 2 * a * PREC + sh).
    { apply Z.mul_lt_mono_pos_r with (p := sup + sh); [lia|].
      pose proof (proj1 (Z.mul_lt_mono_pos_l (2 * PREC) _ _ ltac:(lia)) NM). lia. }
    pose proof (Z.mul_le_mono_nonneg_r (r + 1) r' (2 * sh) ltac:(lia) ltac:(lia)) as A6.
    assert (A7 : 2 * r * sh + sh + 1 <= 2 * a * PREC) by lia.
    assert (A9 : 2 * PREC * (p - a) <= sh + PREC - 1) by lia.
    pose proof (Z.mul_le_mono_nonneg_r _ _ (PREC * PREC) PP A7).
    pose proof (Z.mul_le_mono_nonneg_r _ _ (PREC * PREC) PP A9). lia.
Qed.

(* ... which is at most one share's worth (the code's own rate) whenever the rate is at least 1 *)
Lemma roundtrip_one_share tv sup a : 0 < sup -> sup <= tv -> 0 <= a ->
  let r := rate_of tv sup in
  let sh := bond_shares tv sup a in
  let p := unbond_payout (tv + a) (sup + sh) sh in
  (p - a) * PREC <= r.
Proof.
  intros Hs Ht Ha. cbv zeta. pose proof (rate_ge_one tv sup Hs Ht) as R. pose proof PREC_gt_3 as P3.
  pose proof (roundtrip_explicit tv sup a ltac:(lia) Hs ltac:(lia) Ha) as B. cbv zeta in B.
  set (g := unbond_payout _ _ _ - a) in *. set (r := rate_of tv sup) in *. clearbody g r.
  (* if g*P >= r + 1 then 2 P^2 (r + 1) <= r (P^2 + P + 2) + P^3, impossible for r >= P > 3 *)
  destruct (Z_le_gt_dec (g * PREC) r) as [L|G]; [exact L|exfalso].
  pose proof (Z.mul_le_mono_nonneg_l (r + 1) (g * PREC) (2 * PREC * PREC) ltac:(nia) ltac:(lia)).
  pose proof (Z.mul_le_mono_nonneg_l _ _ (PREC * PREC) ltac:(nia) R).
  pose proof (Z.mul_le_mono_nonneg_r _ _ r ltac:(lia) (Z.lt_le_incl _ _ P3)). nia.
Qed.

(* at par (the empty vault, or supply = TotalValue) nothing is rounded *)
Lemma bond_shares_par tv sup a : bond_rate tv sup = PREC -> bond_shares tv sup a = a.
Proof. intros E. unfold bond_shares, round_int, dec_of_int. rewrite E, dquo_one_r. apply chop_round_mult. Qed.

Lemma unbond_payout_par tv sup sh : rate_of tv sup = PREC -> unbond_payout tv sup sh = sh.
Proof. intros E. unfold unbond_payout, round_int, dec_of_int. rewrite E, dmul_one_r. apply chop_round_mult. Qed.

(* what a bound on the fall of the exact value per share means for the code's own rate (raw 10^-18 units) *)
Lemma code_rate_drop tv sup tv' sup' E : 0 <= tv -> 0 < sup -> 0 <= tv' -> 0 < sup' ->
  2 * PREC * PREC * (tv * sup' - tv' * sup) <= sup * E ->
  2 * PREC * sup' * (rate_of tv sup - rate_of tv' sup' - 1) < E + 2 * sup'.
Proof.
  intros Ht Hs Ht' Hs' V. pose proof PREC_pos as PP.
  destruct (rate_bounds tv sup Ht Hs) as (_ & R2 & _). destruct (rate_bounds tv' sup' Ht' Hs') as (R1' & _).
  pose proof (Z.mul_le_mono_nonneg_r _ _ (sup' * PREC) ltac:(nia) R2).
  pose proof (proj1 (Z.mul_lt_mono_pos_r sup _ _ Hs) R1').
  apply Z.mul_lt_mono_pos_l with (p := sup); lia.
Qed.

(* a step that leaves the supply alone and does not lower TotalValue costs the shares nothing *)
Lemma no_drop tv tv' S : 0 < S -> tv <= tv' -> 2 * PREC * PREC * (tv * S - tv' * S) <= S * 0.
Proof.
  intros HS Hi. pose proof PREC_pos.
  pose proof (Z.mul_le_mono_nonneg_r _ _ (S * (2 * PREC * PREC)) ltac:(nia) Hi). lia.
Qed.

Lemma cap_max_exact tv : cap_max tv = 9 * tv * 100000000000000000.
Proof.
  unfold cap_max, dec_of_int. rewrite dmul_int_r. apply dquo_exact; [discriminate|].
  change PREC with (100000000000000000 * 10). ring.
Qed.

Lemma cap_decision tv cash amt :
  (cap_max tv <? cap_borrowed tv cash amt) = (9 * tv <? 10 * (tv - cash + amt)).
Proof.
  rewrite cap_max_exact. unfold cap_borrowed, dec_of_int. change PREC with (100000000000000000 * 10).
  destruct (Z.ltb_spec (9 * tv) (10 * (tv - cash + amt))); [apply Z.ltb_lt|apply Z.ltb_ge]; lia.
Qed.

Lemma upd_nth_oob {A} (l : list A) u x : (length l <= u)%nat -> upd_nth u x l = l.
Proof. apply ListFacts.upd_nth_oob. Qed.

Lemma get_upd tv sup cash l u x : (u < length l)%nat -> get_acct (mkS tv sup cash (upd_nth u x l)) u = x.
Proof. apply nth_upd_nth_same. Qed.

Lemma held_listed (f : acct -> Z) s u : f dflt_acct = 0 -> 0 < f (get_acct s u) -> (u < length (s_accts s))%nat.
Proof.
  intros E H. destruct (Nat.lt_ge_cases u (length (s_accts s))) as [L|L]; [exact L|].
  unfold get_acct in H. rewrite nth_overflow in H by exact L. lia.
Qed.

Lemma bond_ok u amt s s' : bond u amt s = Ok s' ->
  let a := get_acct s u in let sh := bond_shares (s_tv s) (s_supply s) amt in
  0 < amt <= a_wallet a /\ (u < length (s_accts s))%nat /\ 0 <= sh /\
  s' = mkS (s_tv s + amt) (s_supply s + sh) (s_cash s + amt)
           (upd_nth u (mkA (a_wallet a - amt) (a_shares a + sh) (a_borrowed a) (a_stacked a) (a_paid a)) (s_accts s)).
Proof.
  unfold bond. intros H. apply guard_lt in H as [A H]. apply guard_le in H as [W H]. cbv zeta.
  destruct (Z.ltb_spec (bond_shares (s_tv s) (s_supply s) amt) 0) as [|S3]; [discriminate|]. injection H as <-.
  repeat split; try assumption. apply (held_listed a_wallet); [reflexivity|lia].
Qed.

Lemma unbond_ok u sh s s' : unbond u sh s = Ok s' ->
  let a := get_acct s u in let p := unbond_payout (s_tv s) (s_supply s) sh in
  0 < sh <= a_shares a /\ (u < length (s_accts s))%nat /\ 0 < p <= s_cash s /\
  s' = mkS (s_tv s - p) (s_supply s - sh) (s_cash s - p)
           (upd_nth u (mkA (a_wallet a + p) (a_shares a - sh) (a_borrowed a) (a_stacked a) (a_paid a)) (s_accts s)).
Proof.
  unfold unbond. intros H. apply guard_lt in H as [A H]. apply guard_le in H as [W H]. cbv zeta.
  destruct (unbond_payout (s_tv s) (s_supply s) sh <? 0); [discriminate|].
  apply guard_lt in H as [P0 H]. apply guard_le in H as [C H]. injection H as <-.
  repeat split; try assumption. apply (held_listed a_shares); [reflexivity|lia].
Qed.

(* a Borrow that returns Ok passed the cap exactly as written: (TV - cash) + amount <= 0.9 TV on the
   state it was evaluated on, before the interest the call itself stacks is added to TotalValue *)
Lemma borrow_ok u amt i s s' : borrow u amt i s = Ok s' ->
  let a := get_acct s u in
  0 < amt <= s_cash s /\ 0 <= i /\ 10 * (s_tv s - s_cash s + amt) <= 9 * s_tv s /\
  s' = mkS (s_tv s + i) (s_supply s) (s_cash s - amt)
           (upd_nth u (mkA (a_wallet a + amt) (a_shares a) (a_borrowed a + amt) (a_stacked a + i) (a_paid a)) (s_accts s)).
Proof.
  unfold borrow. intros H. apply guard_ok in H as [_ H]. apply guard_le in H as [I H].
  rewrite cap_decision in H. apply guard_ok in H as [C H]. apply negb_true_iff, Z.ltb_ge in C.
  apply guard_lt in H as [A H]. apply guard_le in H as [D H]. injection H as <-.
  repeat split; assumption.
Qed.

Lemma step_book s o s' : step s o = Ok s' ->
  match o with
  | OBond _ amt => 0 < amt /\ s_tv s' = s_tv s + amt /\
                   s_supply s' = s_supply s + bond_shares (s_tv s) (s_supply s) amt
  | OUnbond _ sh => 0 < sh /\ s_tv s' = s_tv s - unbond_payout (s_tv s) (s_supply s) sh /\
                    s_supply s' = s_supply s - sh
  | _ => s_tv s <= s_tv s' /\ s_supply s' = s_supply s
  end.
Proof.
  destruct o as [u amt|u sh|u amt i|u amt i|u i|u d]; cbn [step]; intros H.
  - apply bond_ok in H as ([A _] & _ & _ & ->). auto.
  - apply unbond_ok in H as ([A _] & _ & _ & ->). auto.
  - apply borrow_ok in H as (_ & I & _ & ->). cbn. lia.
  - unfold repay in H. apply guard_ok in H as [_ H]. apply guard_le in H as [I H].
    do 3 apply guard_ok in H as [_ H]. injection H as <-. cbn. lia.
  - unfold accrue in H. apply guard_le in H as [I H]. injection H as <-. cbn. lia.
  - unfold ext in H. apply guard_ok in H as [_ H]. injection H as <-. cbn. lia.
Qed.

Definition share_op (o : op) : bool := match o with OBond _ _ | OUnbond _ _ => true | _ => false end.

(* slack of one step, numerator over 2 P^2 *)
Definition step_slack (s : state) (o : op) : Z :=
  match o with
  | OBond _ amt => bond_slack (rate_of (s_tv s) (s_supply s)) (bond_shares (s_tv s) (s_supply s) amt)
  | OUnbond _ sh => PREC * unbond_slack sh
  | _ => 0
  end.

(* Above 5*10^17 (deposit) / 10^18 (withdrawal) shares the one-share allowance does NOT hold: the stored
   rate has 18 digits, and half a unit of its last digit times 10^21 shares is hundreds of base units.
   States taken from the real application (harness corpus history "witness of C07_others_one_share_refuted"). *)
Definition refute_tv_u := 2006164383761643835616.
Definition refute_sup_u := 2000000000200000000000.
Definition refute_sh_u := 1000000000000000000000.
Definition refute_tv_b := 1003082191981130136616.
Definition refute_sup_b := 1000000000200000000000.
Definition refute_a_b := 1000000000000000000000.
