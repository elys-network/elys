From Coq Require Import ZArith List Lia.
From Elys Require Import Base.Res Base.ResFacts Base.Fn Models.SumLedger.
Import ListNotations.
Open Scope Z_scope.

Definition SInv (s : sl) : Prop :=
  NoDup (keys s) /\ total s = sumf (parts s) (keys s) /\ count s = Z.of_nat (length (keys s)) /\
  (forall k, In k (keys s) -> 0 <= parts s k).

Lemma mem_key_In k l : mem_key k l = true <-> In k l.
Proof.
  unfold mem_key. rewrite existsb_exists. split.
  - intros (x & Hx & E). apply Nat.eqb_eq in E. subst. exact Hx.
  - intros H. exists k. split; [exact H|apply Nat.eqb_refl].
Qed.

(* [remove_key] takes out the first occurrence of the key: under [NoDup] the only one *)
Lemma remove_key_sum f k l : In k l -> sumf f l = f k + sumf f (remove_key k l).
Proof.
  induction l as [|y r IH]; intros Hin; [destruct Hin|]. cbn [remove_key].
  destruct (Nat.eqb_spec k y) as [->|Ne]; [reflexivity|].
  destruct Hin as [E|Hin]; [congruence|]. cbn [sumf]. rewrite (IH Hin). lia.
Qed.

Lemma remove_key_length k l : In k l -> length l = S (length (remove_key k l)).
Proof.
  induction l as [|y r IH]; intros Hin; [destruct Hin|]. cbn [remove_key].
  destruct (Nat.eqb_spec k y) as [->|Ne]; [reflexivity|].
  destruct Hin as [E|Hin]; [congruence|]. cbn [length]. rewrite (IH Hin). reflexivity.
Qed.

Lemma remove_key_notin k l : ~ In k l -> remove_key k l = l.
Proof.
  induction l as [|y r IH]; intros H; cbn; [reflexivity|].
  destruct (Nat.eqb_spec k y) as [->|Ne]; [destruct H; left; reflexivity|].
  rewrite IH; [reflexivity|]. intros Hin; apply H; right; exact Hin.
Qed.

Lemma remove_key_In k l x : NoDup l -> In x (remove_key k l) <-> In x l /\ x <> k.
Proof.
  induction l as [|y r IH]; intros ND; [cbn; tauto|]. inversion ND as [|? ? Hy NDr]; subst. cbn [remove_key].
  destruct (Nat.eqb_spec k y) as [->|Ne]; cbn [In]; [|rewrite (IH NDr)]; intuition congruence.
Qed.

Lemma remove_key_NoDup k l : NoDup l -> NoDup (remove_key k l).
Proof.
  induction 1 as [|y r Hy NDr IH]; cbn [remove_key]; [constructor|].
  destruct (Nat.eqb_spec k y); [exact NDr|]. constructor; [|exact IH]. rewrite remove_key_In by exact NDr. tauto.
Qed.

Lemma sstep_ok s o s' : sstep s o = Ok s' ->
  match o with
  | SNew k a => ~ In k (keys s) /\ 0 <= a /\
      s' = mkSL (upd (parts s) k a) (k :: keys s) (total s + a) (count s + 1)
  | SAdd k a => In k (keys s) /\ 0 <= a /\
      s' = mkSL (upd (parts s) k (parts s k + a)) (keys s) (total s + a) (count s)
  | SSub k a => In k (keys s) /\ 0 <= a <= parts s k /\
      s' = mkSL (upd (parts s) k (parts s k - a)) (keys s) (total s - a) (count s)
  | SDel k => In k (keys s) /\ parts s k = 0 /\
      s' = mkSL (parts s) (remove_key k (keys s)) (total s) (count s - 1)
  end.
Proof.
  destruct o as [k a|k a|k a|k]; cbn [sstep]; rewrite <- mem_key_In; destruct (mem_key k (keys s)); cbn [negb];
    intros H; try discriminate.
  - destruct (a <? 0) eqn:A; [discriminate|]. apply Z.ltb_ge in A. injection H as <-. auto.
  - destruct (a <? 0) eqn:A; [discriminate|]. apply Z.ltb_ge in A. injection H as <-. auto.
  - destruct (a <? 0) eqn:A; [discriminate|]. destruct (parts s k <? a) eqn:B; [discriminate|].
    apply Z.ltb_ge in A, B. injection H as <-. auto.
  - destruct (parts s k =? 0) eqn:Z0; [|discriminate]. apply Z.eqb_eq in Z0. injection H as <-. auto.
Qed.

Lemma SInv_move s k c : SInv s -> In k (keys s) -> 0 <= parts s k + c ->
  SInv (mkSL (upd (parts s) k (parts s k + c)) (keys s) (total s + c) (count s)).
Proof.
  intros (ND & HT & HC & HP) Hin Hc. unfold SInv; cbn. repeat split; auto.
  - rewrite sumf_upd_in by assumption. lia.
  - intros x Hx. unfold upd. destruct (Nat.eqb x k); auto.
Qed.

Lemma sstep_inv s o s' : SInv s -> sstep s o = Ok s' -> SInv s'.
Proof.
  intros HI H. apply sstep_ok in H. pose proof HI as (ND & HT & HC & HP). destruct o as [k a|k a|k a|k].
  - destruct H as (Hn & A & ->). unfold SInv. cbn [parts keys total count length sumf]. repeat split.
    + constructor; assumption.
    + rewrite upd_same, sumf_upd_notin by exact Hn. lia.
    + lia.
    + intros x [->|Hx]; [rewrite upd_same; lia|]. rewrite upd_other by congruence. auto.
  - destruct H as (Hin & A & ->). apply SInv_move; auto. specialize (HP k Hin). lia.
  - destruct H as (Hin & A & ->). apply (SInv_move s k (- a)); auto. lia.
  - destruct H as (Hin & Z0 & ->). unfold SInv. cbn [parts keys total count].
    split; [apply remove_key_NoDup, ND|]. split; [rewrite HT, (remove_key_sum (parts s) k) by exact Hin; lia|].
    split; [rewrite HC, (remove_key_length k (keys s) Hin); lia|].
    intros x Hx. apply remove_key_In in Hx; [|exact ND]. apply HP, Hx.
Qed.

Theorem srun_inv h : forall s, SInv s -> SInv (srun s h).
Proof.
  intros s. apply (txs_inv SInv (fun _ => True) sstep ssteps (fun _ => eq_refl) (fun _ _ _ => eq_refl)).
  - intros s1 o s2 _. apply sstep_inv.
  - apply Forall_Forall_in. auto.
Qed.

Lemma sl_empty_inv : SInv sl_empty.
Proof. unfold SInv, sl_empty; cbn. split; [constructor|]. split; [reflexivity|]. split; [reflexivity|]. intros k []. Qed.

(* "credit k": the amount goes to part k, which is stored first when it is not there yet *)
Lemma scredit_ok s k a t : sstep s (if mem_key k (keys s) then SAdd k a else SNew k a) = Ok t ->
  0 <= a /\ total t = total s + a /\
  (forall x, In x (keys t) <-> x = k \/ In x (keys s)) /\
  (In k (keys s) -> parts t k = parts s k + a) /\ (~ In k (keys s) -> parts t k = a) /\
  (forall x, x <> k -> parts t x = parts s x).
Proof.
  intros H. destruct (mem_key k (keys s)); apply sstep_ok in H as (Hk & A & ->); cbn;
    rewrite upd_same; (repeat split; auto; try tauto); try (intros x Hx; apply upd_other; exact Hx).
  - intros [->|Hx]; assumption.
  - intros [<-|Hx]; auto.
  - intros [->|Hx]; auto.
Qed.
