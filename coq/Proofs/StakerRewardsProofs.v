(* C18, Models/StakerRewards.v: the EdenB amount and the Eden cap of a block are non-negative when TotalBlocksPerYear
   fits an int64, and what happens when it does not. *)
From Coq Require Import ZArith Lia.
From Elys Require Import Base.Zdec Models.Blocks Models.StakerRewards.
Open Scope Z_scope.

Lemma quo_int64_nonneg : forall a tbpy, 0 <= a -> tbpy_int64 tbpy -> 0 <= dquo_int a (to_int64 tbpy).
Proof.
  intros a tbpy Ha [H0 H1]. unfold dquo_int, to_int64. apply Z.ltb_lt in H1. rewrite H1. apply Z.quot_pos; lia.
Qed.

Lemma edenb_amount_nonneg : forall total apr tbpy, 0 <= total -> 0 <= apr -> tbpy_int64 tbpy ->
  0 <= edenb_amount total apr tbpy.
Proof.
  intros total apr tbpy Ht Ha Hy. apply chop_round_bounds, quo_int64_nonneg; [|exact Hy].
  unfold dec_of_int. rewrite dmul_int_l. apply Z.mul_nonneg_nonneg; assumption.
Qed.

Lemma eden_cap_nonneg : forall total apr tbpy, 0 <= total -> 0 <= apr -> tbpy_int64 tbpy ->
  0 <= eden_cap total apr tbpy.
Proof.
  intros total apr tbpy Ht Ha Hy. apply trunc_int_bounds, quo_int64_nonneg; [|exact Hy].
  apply Z.mul_nonneg_nonneg; assumption.
Qed.

(* BEFORE fix: f62637f x/parameter accepted every non-zero uint64: 2^63 is negative as int64. Witness replayed on the real application
   (harness/c18_stake_test.go, first history of c18StakeCorpus): EdenBoostApr 1000000 (accepted by estaking's validation),
   six users stake their whole uelys balance (about 6*10^12 in total; every total from 4.62*10^12 to 1.38*10^13 gives -1); the end
   blocker panics with "negative coin amount: -1". *)
Lemma edenb_amount_witness : edenb_amount 6000000999994 (1000000 * PREC) (2 ^ 63) = -1.
Proof. vm_compute. reflexivity. Qed.

Lemma eden_cap_prefix_refuted : exists total apr tbpy,
  0 <= total /\ 0 <= apr /\ tbpy_accepted_prefix tbpy /\ eden_cap total apr tbpy < 0.
Proof.
  exists 10000000000000, (1000000 * PREC), (2 ^ 63). repeat split; vm_compute; congruence.
Qed.
