From Coq Require Import ZArith List.
From Elys Require Import Models.SumLedger Proofs.SumLedgerProofs Models.Shares.
Import ListNotations.
Open Scope Z_scope.

(* C02: supply = pool.TotalShares = custody of the commitment module, and between handlers no share is liquid *)
Definition ShInv (s : shares) : Prop :=
  SInv (sh_sl s) /\ sh_tshares s = total (sh_sl s) /\ sh_custody s = total (sh_sl s) /\
  (forall k, sh_wallet s k = 0) /\ sh_amm s = 0.

Lemma sh_empty_inv : ShInv sh_empty.
Proof. split; [apply sl_empty_inv|]. cbn. repeat split; reflexivity. Qed.
