(* Proofs about Models/AmmSwap.v (C03), part 1: the checked operations, the shape of Pow, and what
   CalcOutAmtGivenIn / CalcInAmtGivenOut return on a constant-product pool in terms of the value of Pow.
   All statements over unbounded Z. *)
From Coq Require Import ZArith List Lia.
From Elys Require Import Base.Res Base.ResFacts Base.Zdec Models.AmmSwap.
Import ListNotations.
Open Scope Z_scope.

Lemma chk_ok x v : chk x = Ok v -> v = x.
Proof. unfold chk. destruct (in_range x); congruence. Qed.

Lemma cadd_ok a b v : cadd a b = Ok v -> v = a + b.
Proof. apply chk_ok. Qed.
Lemma csub_ok a b v : csub a b = Ok v -> v = a - b.
Proof. apply chk_ok. Qed.
Lemma cmul_ok a b v : cmul a b = Ok v -> v = dmul a b.
Proof. apply chk_ok. Qed.
Lemma cquo_ok a b v : cquo a b = Ok v -> b <> 0 /\ v = dquo a b.
Proof.
  unfold cquo. destruct (Z.eqb_spec b 0); [discriminate|].
  intros H. split; [assumption|]. now apply chk_ok.
Qed.
Lemma cceil_ok a v : cceil a = Ok v -> v = dceil a.
Proof. apply chk_ok. Qed.

(* serves cadd, csub, cmul too: they are [chk] of the plain operation *)
Lemma bind_chk {B} x (k : Z -> res B) v : bind (chk x) k = Ok v -> k x = Ok v.
Proof. unfold chk. destruct (in_range x); [trivial|discriminate]. Qed.

(* [cceil] apart: matching it against [chk] would unfold the range check on [dceil] of an explicit term *)
Lemma bind_cceil {B} a (k : Z -> res B) v : bind (cceil a) k = Ok v -> k (dceil a) = Ok v.
Proof. apply bind_chk. Qed.

Lemma bind_cquo {B} a b (k : Z -> res B) v : bind (cquo a b) k = Ok v -> k (dquo a b) = Ok v.
Proof. unfold cquo. destruct (b =? 0); [discriminate|apply bind_chk]. Qed.

(* what is charged after the fee and the rounding up covers the amount before them *)
Lemma charge_ge x f : 0 <= x -> 0 < f <= PREC -> x <= trunc_int (dceil (dquo x f)) * PREC.
Proof.
  intros Hx Hf. pose proof (dquo_ge_l x f Hx Hf).
  pose proof (dceil_trunc (dquo x f)). lia.
Qed.

(* Pow: integer part of the exponent by LegacyDec.Power, fractional part by powerApproximation. (0 <= e is the range the
   model covers: for a negative exponent the Go code converts to uint64, the model answers Panic P_unmodelled.) *)
Lemma pow_shape y e pw : 0 <= e -> pow y e = Ok pw ->
  0 < y /\ exists ip, power y (Z.quot e PREC) = Ok ip /\
    ((Z.rem e PREC = 0 /\ pw = ip) \/
     (Z.rem e PREC <> 0 /\ exists fp, power_approx y (Z.rem e PREC) = Ok fp /\ pw = dmul ip fp)).
Proof.
  intros He H. unfold pow in H.
  destruct (Z.leb_spec y 0); [discriminate|].
  destruct (Z.ltb_spec e 0); [lia|]. cbv zeta in H.
  unfold trunc_dec, chop_trunc in H. rewrite trunc_int_mult in H.
  replace (e - Z.quot e PREC * PREC) with (Z.rem e PREC) in H by (pose proof (Z.quot_rem' e PREC); lia).
  apply bind_ok in H. destruct H as (ip & Hip & H).
  split; [assumption|]. exists ip. split; [exact Hip|].
  destruct (Z.eqb_spec (Z.rem e PREC) 0); [left; split; congruence|right; split; [assumption|]].
  apply bind_ok in H. destruct H as (fp & Hfp & H). apply cmul_ok in H. eauto.
Qed.

Lemma pow_integer y n pw : pow y (n * PREC) = Ok pw -> 0 <= n -> 0 < y /\ power y n = Ok pw.
Proof.
  intros H Hn. pose proof PREC_pos. apply pow_shape in H; [|nia].
  rewrite Z.quot_mul, Z.rem_mul in H by discriminate.
  destruct H as (Hy & ip & Hip & [[_ ->]|[[] _]]); auto.
Qed.

Lemma power_one g v : power g 1 = Ok v -> v = g.
Proof. intros H. apply cmul_ok in H. now rewrite H, dmul_one_r. Qed.

Lemma pow_one y v : pow y ONE = Ok v -> v = y /\ 0 < y.
Proof.
  intros H. apply (pow_integer y 1) in H; [|discriminate].
  destruct H as [Hy H]. apply power_one in H. auto.
Qed.

Lemma solve_inv bb ba wf bu wu v :
  solve bb ba wf bu wu = Ok v ->
  wu <> 0 /\ 0 < ba /\ exists pw, pow (dquo bb ba) (dquo wf wu) = Ok pw /\ v = dmul bu (ONE - pw).
Proof.
  unfold solve. intros H.
  destruct (Z.eqb_spec wu 0); [discriminate|].
  apply bind_cquo in H.
  destruct (Z.leb_spec ba 0); [discriminate|].
  apply bind_cquo in H.
  apply bind_ok in H. destruct H as (pw & Hpw & H).
  apply bind_chk in H. apply cmul_ok in H. eauto.
Qed.

(* effective balance (accounted-pool override), as an Int *)
Definition ebal (bal acc : Z) : Z := if 0 <? acc then acc else bal.
Lemma eff_ebal bal acc : eff bal acc = ebal bal acc * PREC.
Proof. unfold eff, ebal. destruct (0 <? acc); reflexivity. Qed.

Lemma calc_out_inv p a fee out slip :
  use_oracle p = false -> calc_out p a fee = Ok (out, slip) ->
  let Bi := ebal (b_in p) (acc_in p) in
  let N := Bi * PREC + a * (PREC - fee) in
  0 < N /\ w_out p * PREC <> 0 /\
  exists pw, pow (dquo (Bi * PREC) N) (dquo (w_in p * PREC) (w_out p * PREC)) = Ok pw /\
    out = trunc_int (ebal (b_out p) (acc_out p) * (PREC - pw)) /\ 0 < out.
Proof.
  intros Hno H. unfold calc_out, weights in H. rewrite Hno, !eff_ebal in H.
  do 3 apply bind_chk in H. rewrite dmul_int_l in H. cbn [bind] in H.
  apply bind_ok in H. destruct H as (o & Ho & H).
  apply solve_inv in Ho. destruct Ho as (Hw & HN & pw & Hpw & ->).
  destruct (_ =? 0); [discriminate|].
  apply bind_ok in H. destruct H as (rate & _ & H). apply bind_chk in H.
  destruct (_ =? 0); [discriminate|].
  apply bind_cquo in H. apply bind_chk in H.
  destruct (_ <=? 0) eqn:E; [discriminate|]. apply Z.leb_gt in E.
  apply ok_pair_inv in H. destruct H as [-> _]. rewrite dmul_int_l in *. unfold ONE in *.
  split; [exact HN|]. split; [exact Hw|]. exists pw. auto.
Qed.

Lemma calc_in_inv p o fee inn slip :
  use_oracle p = false -> calc_in p o fee = Ok (inn, slip) ->
  let Bo := ebal (b_out p) (acc_out p) in
  0 < Bo * PREC - o * PREC /\ w_in p * PREC <> 0 /\ fee < PREC /\
  exists pw, pow (dquo (Bo * PREC) (Bo * PREC - o * PREC)) (dquo (w_out p * PREC) (w_in p * PREC)) = Ok pw /\
    inn = trunc_int (dceil (dquo (ebal (b_in p) (acc_in p) * (pw - PREC)) (PREC - fee))) /\ 0 < inn.
Proof.
  intros Hno H. unfold calc_in, weights in H. rewrite Hno, !eff_ebal in H. cbn [bind] in H.
  apply bind_chk in H. apply bind_ok in H. destruct H as (t0 & Ht & H).
  apply solve_inv in Ht. destruct Ht as (Hw & HR & pw & Hpw & ->).
  apply bind_ok in H. destruct H as (rate & _ & H).
  apply bind_cquo in H.
  destruct (_ =? 0); [discriminate|].
  apply bind_cquo in H. apply bind_chk in H.
  destruct (Z.leb_spec ONE fee); [discriminate|].
  apply bind_chk in H. apply bind_cquo in H. apply bind_cceil in H.
  destruct (_ <=? 0) eqn:E; [discriminate|]. apply Z.leb_gt in E.
  apply ok_pair_inv in H. destruct H as [-> _]. rewrite dmul_int_l in *. unfold ONE in *.
  replace (- (_ * (PREC - pw))) with (ebal (b_in p) (acc_in p) * (pw - PREC)) in * by ring.
  split; [exact HR|]. split; [exact Hw|]. split; [assumption|]. exists pw. auto.
Qed.
