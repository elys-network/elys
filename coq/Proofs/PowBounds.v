(* Bounds on the fixed-point power function Pow of x/amm/types (model: Models/AmmSwap.v [pow]) - part 1:
   the INTEGER-exponent path (LegacyDec.Power = square-and-multiply with a rounding Mul at each step) and the
   full C03 statement for weighted pools whose weight ratio w_in/w_out is an integer n >= 1.

   Error analysis of [power y n] (n >= 1, y >= 0), with M any number >= max(y, 10^18):
       2*10^18*y^n <= 2*pw*10^(18n) + (n-1)*M^n
   i.e. pw >= y^n/10^(18(n-1)) - (n-1)/2 ulp for y <= 1 and pw >= y^n*(1 - (n-1)/(2*10^18)) for y >= 1
   (each of the n-1 roundings of Dec.Mul loses at most half a unit of 10^-18, amplified by at most max(1,y)^n).
   All exponent arithmetic is over Z (Z.pow). *)
From Coq Require Import ZArith List Lia.
From Elys Require Import Base.Res Base.Zdec Models.AmmSwap Proofs.AmmSwapProofs Proofs.AmmSwapProofs2.
Import ListNotations.
Open Scope Z_scope.

(* PowerMut only multiplies: whatever families D (of the squares d, d^2, d^4, ...) and T (of the accumulator), indexed
   by the exponent reached, are closed under Mul contain what it returns *)
Lemma power_loop_closed (D T : Z -> Z -> Prop) :
  (forall k k' a b, D k a -> D k' b -> D (k + k') (dmul a b)) ->
  (forall j k t d, T j t -> D k d -> T (j + k) (dmul t d)) ->
  forall p d tmp k j v, power_loop p d tmp = Ok v -> D k d -> T j tmp -> T (j + k * Zpos p) v.
Proof.
  intros HD HT. induction p as [p IH|p IH|]; intros d tmp k j v H Hd Ht; cbn [power_loop] in H.
  - do 2 apply bind_chk in H.
    replace (j + k * Z.pos p~1) with (j + k + (k + k) * Z.pos p) by (rewrite Pos2Z.inj_xI; ring). eauto.
  - apply bind_chk in H.
    replace (j + k * Z.pos p~0) with (j + (k + k) * Z.pos p) by (rewrite Pos2Z.inj_xO; ring). eauto.
  - apply cmul_ok in H. subst v. rewrite dmul_comm, Z.mul_1_r. auto.
Qed.

Lemma power_closed (P : Z -> Prop) y n pw :
  (forall a b, P a -> P b -> P (dmul a b)) -> P ONE -> P y -> power y n = Ok pw -> P pw.
Proof.
  intros HM H1 Hy H. destruct n as [|p|p]; [injection H as <-; exact H1| |discriminate].
  exact (power_loop_closed (fun _ => P) (fun _ => P) (fun _ _ => HM) (fun _ _ => HM) p y ONE 0 0 pw H Hy H1).
Qed.

Lemma power_le_one y n pw : 0 <= y <= PREC -> power y n = Ok pw -> 0 <= pw <= PREC.
Proof.
  apply (power_closed (fun v => 0 <= v <= PREC)); [|pose proof PREC_pos; unfold ONE; lia].
  intros a b Ha Hb. pose proof (dmul_le_l a b). lia.
Qed.

Lemma power_ge_one y n pw : PREC <= y -> power y n = Ok pw -> PREC <= pw.
Proof. apply (power_closed (fun v => PREC <= v)); [exact dmul_ge_one|reflexivity]. Qed.

Lemma power_nonneg y n pw : 0 <= y -> power y n = Ok pw -> 0 <= pw.
Proof. apply (power_closed (fun v => 0 <= v)); [exact dmul_nonneg|discriminate]. Qed.

(* the arithmetic core of one rounded multiplication:
   X and Y are approximated from below by U and V up to E and F, and are at most mX and mY: then X*Y is approximated by
   U*V up to E*mY + F*mX. (U and V are not bounded: X*Y - U*V is split as (X-U)*Y + U*(Y-V) when Y <= V and as
   X*(Y-V) + (X-U)*V otherwise.) *)
Lemma prod_le_slack X U E mX Y V F mY :
  0 <= X <= mX -> 0 <= Y <= mY -> 0 <= U -> 0 <= V -> 0 <= E -> 0 <= F -> X <= U + E -> Y <= V + F ->
  X * Y <= U * V + E * mY + F * mX.
Proof.
  intros HX HY HU HV HE HF HXU HYV.
  destruct (Z_le_gt_dec Y V) as [C|C].
  - assert (A1 : (X - U) * Y <= E * mY) by nia.
    assert (A2 : U * (Y - V) <= 0) by nia.
    assert (A3 : 0 <= F * mX) by nia. lia.
  - assert (A1 : X * (Y - V) <= mX * F) by nia.
    assert (A2 : (X - U) * V <= E * mY) by nia. lia.
Qed.

(* a_j, a_k stand for y^j, y^k, approximated by t, d at the scales p_j, p_k with errors (j-1)*m_j/2P, (k-1)*m_k/2P;
   t' is the rounded product of t and d: the errors add, plus half a unit for the rounding *)
Lemma mul_core P pj mj aj t j pk mk ak d k t' :
  0 < P -> 0 < pj <= mj -> 0 <= aj <= mj -> 0 < pk <= mk -> 0 <= ak <= mk ->
  1 <= j -> 1 <= k -> 0 <= t -> 0 <= d -> 0 <= t' ->
  2 * P * aj <= 2 * t * pj + (j - 1) * mj ->
  2 * P * ak <= 2 * d * pk + (k - 1) * mk ->
  2 * (t * d) - P <= 2 * (t' * P) ->
  2 * P * (aj * ak) <= 2 * t' * (pj * pk) + (j + k - 1) * (mj * mk).
Proof.
  intros HP Hpj Haj Hpk Hak Hj Hk Ht Hd Ht' Qj Qk Hr.
  assert (S := prod_le_slack (2 * P * aj) (2 * t * pj) ((j - 1) * mj) (2 * P * mj)
                             (2 * P * ak) (2 * d * pk) ((k - 1) * mk) (2 * P * mk)
                             ltac:(nia) ltac:(nia) ltac:(nia) ltac:(nia) ltac:(nia) ltac:(nia) Qj Qk).
  assert (Hpp : 0 < pj * pk <= mj * mk) by (split; [apply Z.mul_pos_pos|apply Z.mul_le_mono_nonneg]; lia).
  assert (R : (2 * (t * d) - P) * (2 * (pj * pk)) <= 2 * (t' * P) * (2 * (pj * pk))) by (apply Z.mul_le_mono_nonneg_r; lia).
  assert (M : P * (pj * pk) <= P * (mj * mk)) by (apply Z.mul_le_mono_nonneg_l; lia).
  apply Z.mul_le_mono_pos_l with (2 * P); [lia|]. lia.
Qed.

Section PowerLoop.
  Variables y M : Z.
  Hypothesis Hy : 0 <= y <= M.
  Hypothesis HM : PREC <= M.

  (* v approximates y^k (at scale 10^18) from below *)
  Definition Qlb (k v : Z) : Prop := 2 * PREC * y ^ k <= 2 * v * PREC ^ k + (k - 1) * M ^ k.
  Definition Dinv (k d : Z) : Prop := 1 <= k /\ 0 <= d /\ Qlb k d.

  Lemma pows k : 0 <= k -> 0 < PREC ^ k <= M ^ k /\ 0 <= y ^ k <= M ^ k.
  Proof.
    intros Hk. pose proof PREC_pos as HP. split; split.
    - apply Z.pow_pos_nonneg; lia.
    - apply Z.pow_le_mono_l; lia.
    - apply Z.pow_nonneg; lia.
    - apply Z.pow_le_mono_l; lia.
  Qed.

  Lemma Dinv_mul j k t d : Dinv j t -> Dinv k d -> Dinv (j + k) (dmul t d).
  Proof.
    intros (Hj & Ht & Qj) (Hk & Hd & Qk). pose proof PREC_pos as HP.
    destruct (dmul_bounds t d Ht Hd) as [N0 [N1 _]]. pose proof HALF_PREC.
    split; [lia|]. split; [exact N0|]. unfold Qlb in *.
    destruct (pows j ltac:(lia)) as [A1 A2]. destruct (pows k ltac:(lia)) as [B1 B2].
    rewrite !Z.pow_add_r by lia.
    apply (mul_core PREC (PREC ^ j) (M ^ j) (y ^ j) t j (PREC ^ k) (M ^ k) (y ^ k) d k (dmul t d)); auto. lia.
  Qed.

  (* the accumulator [tmp] of PowerMut: exactly 1 before the first odd digit, afterwards an approximation *)
  Definition Tinv (j tmp : Z) : Prop := (tmp = ONE /\ j = 0) \/ Dinv j tmp.

  Lemma Tinv_mul j k tmp d : Tinv j tmp -> Dinv k d -> Tinv (j + k) (dmul tmp d).
  Proof.
    intros [[-> ->]|Hj] Hk; right.
    - unfold ONE. now rewrite dmul_one_l.
    - now apply Dinv_mul.
  Qed.

  Lemma power_lb n pw : 1 <= n -> power y n = Ok pw ->
    2 * PREC * y ^ n <= 2 * pw * PREC ^ n + (n - 1) * M ^ n /\ 0 <= pw.
  Proof.
    intros Hn H. destruct n as [|p|p]; try lia.
    assert (D1 : Dinv 1 y) by (unfold Dinv, Qlb; rewrite !Z.pow_1_r; lia).
    assert (T0 : Tinv 0 ONE) by (left; split; reflexivity).
    pose proof (power_loop_closed Dinv Tinv Dinv_mul Tinv_mul p y ONE 1 0 pw H D1 T0) as R.
    rewrite Z.add_0_l, Z.mul_1_l in R. destruct R as [[_ E]|(_ & N & Q)]; [lia|]. split; assumption.
  Qed.
End PowerLoop.

Lemma pow_split x n : 1 <= n -> x ^ n = x * x ^ (n - 1).
Proof. intros Hn. rewrite <- Z.pow_succ_r by lia. f_equal. lia. Qed.

Lemma power_lb_le_one y n pw : 0 <= y <= PREC -> 1 <= n -> power y n = Ok pw ->
  2 * y ^ n <= (2 * pw + (n - 1)) * PREC ^ (n - 1) /\ 0 <= pw <= PREC.
Proof.
  intros Hy Hn H. pose proof PREC_pos as HP.
  split; [|eapply power_le_one; eauto].
  destruct (power_lb y PREC Hy ltac:(lia) n pw Hn H) as [L _].
  rewrite (pow_split PREC n Hn) in L. apply Z.mul_le_mono_pos_l with PREC; [exact HP|]. lia.
Qed.

Lemma power_lb_ge_one y n pw : PREC <= y -> 1 <= n -> power y n = Ok pw ->
  (2 * PREC - (n - 1)) * y ^ n <= 2 * pw * PREC ^ n /\ PREC <= pw.
Proof.
  intros Hy Hn H. pose proof PREC_pos as HP.
  split; [|eapply power_ge_one; eauto].
  destruct (power_lb y y ltac:(lia) Hy n pw Hn H) as [L _]. lia.
Qed.

Lemma pow_diff a b e M n : 0 <= a <= M -> 0 <= b <= M -> 0 <= e -> a <= b + e -> 1 <= n ->
  a ^ n <= b ^ n + n * e * M ^ (n - 1).
Proof.
  intros Ha Hb He Hab Hn.
  assert (G : forall m, 0 <= m -> a ^ Z.succ m <= b ^ Z.succ m + Z.succ m * e * M ^ m).
  { apply natlike_ind.
    - change (Z.succ 0) with 1. rewrite !Z.pow_1_r, Z.pow_0_r. lia.
    - intros m Hm IH. rewrite (Z.pow_succ_r a), (Z.pow_succ_r b), (Z.pow_succ_r M m) by lia.
      assert (B0 : 0 <= b ^ Z.succ m) by (apply Z.pow_nonneg; lia).
      assert (B1 : b ^ Z.succ m <= M * M ^ m) by (rewrite <- Z.pow_succ_r by exact Hm; apply Z.pow_le_mono_l; lia).
      assert (M0 : 0 <= M ^ m) by (apply Z.pow_nonneg; lia).
      set (B := b ^ Z.succ m) in *. set (Mm := M ^ m) in *. set (A := a ^ Z.succ m) in *. clearbody B Mm A.
      assert (K : 0 <= Z.succ m * e * Mm) by (repeat apply Z.mul_nonneg_nonneg; lia).
      (* a*A <= a*(B + ..) ; a*B <= (b+e)*B ; e*B <= e*M^(m+1) ; a*(..) <= M*(..) *)
      assert (S1 := Z.mul_le_mono_nonneg_l _ _ a (proj1 Ha) IH).
      assert (S2 := Z.mul_le_mono_nonneg_r _ _ B B0 Hab).
      assert (S3 := Z.mul_le_mono_nonneg_l _ _ e He B1).
      assert (S4 := Z.mul_le_mono_nonneg_r _ _ _ K (proj2 Ha)).
      clear - S1 S2 S3 S4. lia. }
  specialize (G (n - 1) ltac:(lia)). replace (Z.succ (n - 1)) with n in G by lia. exact G.
Qed.

(* Power of a rounded quotient y = Quo(A, N) <= 1 against the exact rational power:
     pw >= (A/N)^n - ((2n-1)/2 + n*10^-18)*10^-18
   (n-1 roundings of Mul at half a unit each, and n times the rounding (1/2 + 10^-18)*10^-18 of the base) *)
Lemma power_quotient_lb A N n pw : 0 <= A <= N -> 0 < N -> 1 <= n -> power (dquo A N) n = Ok pw ->
  2 * (PREC * PREC) * A ^ n <= N ^ n * (2 * pw * PREC + (2 * n - 1) * PREC + 2 * n).
Proof.
  intros HA HN Hn H. pose proof PREC_pos as HP. pose proof HALF_PREC as HH.
  destruct (dquo_le_one A N HA HN) as [Hy0 Hy1].
  destruct (dquo_bounds A N (proj1 HA) HN) as [_ [D1 _]].
  destruct (power_lb_le_one _ n pw (conj Hy0 Hy1) Hn H) as [L _].
  set (y := dquo A N) in *.
  (* the rounding of the base, raised to the power n *)
  assert (PD := pow_diff (A * PREC * PREC) (y * PREC * N) ((HALF + 1) * N) (PREC * PREC * N) n
                  ltac:(nia) ltac:(nia) ltac:(lia) ltac:(lia) Hn).
  rewrite !Z.pow_mul_l, (pow_split PREC n Hn) in PD. rewrite (pow_split N n Hn) in PD |- *.
  assert (Hq : 0 < PREC ^ (n - 1)) by (apply Z.pow_pos_nonneg; lia).
  assert (HNm : 0 < N ^ (n - 1)) by (apply Z.pow_pos_nonneg; lia).
  set (q := PREC ^ (n - 1)) in *. set (Nm := N ^ (n - 1)) in *. set (An := A ^ n) in *. set (yn := y ^ n) in *.
  assert (L3 := Z.mul_le_mono_nonneg_r _ _ (PREC * q * (N * Nm)) ltac:(repeat apply Z.mul_nonneg_nonneg; lia) L).
  apply Z.mul_le_mono_pos_l with (q * q); [apply Z.mul_pos_pos; exact Hq|].
  clearbody q Nm An yn. clear - PD L3 HH. lia.
Qed.

Lemma dquo_int_ratio n w : w * PREC <> 0 -> dquo (n * w * PREC) (w * PREC) = n * PREC.
Proof. intros Hw. apply dquo_exact; [exact Hw|ring]. Qed.

Section IntegerRatioOut.
  Variable p : pool.
  Variables a fee out slip n : Z.
  Hypothesis Hno : use_oracle p = false.
  Hypothesis Hwi : w_in p = n * w_out p.
  Hypothesis Hn : 1 <= n.
  Hypothesis HBi : 0 <= rin p.
  Hypothesis HBo : 0 <= rout p.
  Hypothesis Ha : 0 <= a.
  Hypothesis Hfee : fee <= PREC.
  Hypothesis Hcalc : calc_out p a fee = Ok (out, slip).
  Let N := rin p * PREC + a * (PREC - fee).
  Let y := dquo (rin p * PREC) N.

  Lemma int_ratio_out_pw :
    0 < N /\ 0 <= rin p * PREC <= N /\ 0 < y <= PREC /\
    exists pw, power y n = Ok pw /\ 0 < out /\ out * PREC <= rout p * (PREC - pw).
  Proof.
    pose proof PREC_pos as HP.
    destruct (calc_out_inv p a fee out slip Hno Hcalc) as (HN & Hwo & pw & Hpw & Ho & Hopos).
    fold (rin p) (rout p) in HN, Hpw, Ho. fold N in HN, Hpw. fold y in Hpw.
    rewrite Hwi, dquo_int_ratio in Hpw by exact Hwo.
    apply pow_integer in Hpw; [|lia]. destruct Hpw as [Hypos Hpower].
    assert (HA : 0 <= rin p * PREC <= N) by (unfold N; nia).
    pose proof (dquo_le_one _ _ HA HN) as Hy. fold y in Hy.
    split; [exact HN|]. split; [exact HA|]. split; [lia|]. exists pw. split; [exact Hpower|]. split; [exact Hopos|].
    rewrite Ho in *. now apply trunc_int_pos_le.
  Qed.

  (* against the power of the ROUNDED base y that the code computes *)
  Lemma int_ratio_out_base :
    0 < N /\ 0 < y <= PREC /\ 0 < out <= rout p /\
    2 * out * PREC ^ n <= rout p * (2 * (PREC ^ n - y ^ n) + (n - 1) * PREC ^ (n - 1)).
  Proof.
    pose proof PREC_pos as HP.
    destruct int_ratio_out_pw as (HN & _ & Hy & pw & Hpower & Hopos & U).
    destruct (power_lb_le_one y n pw ltac:(lia) Hn Hpower) as [L [Hpw0 Hpw1]].
    split; [exact HN|]. split; [exact Hy|]. split; [split; [exact Hopos|nia]|].
    rewrite (pow_split PREC n Hn).
    assert (Hq : 0 < PREC ^ (n - 1)) by (apply Z.pow_pos_nonneg; lia).
    set (q := PREC ^ (n - 1)) in *.
    (* 2*out*P*q <= rout*(2P - 2pw)*q ; 2 y^n <= (2pw + n-1) q *)
    assert (U2 : out * PREC * (2 * q) <= rout p * (PREC - pw) * (2 * q)) by (apply Z.mul_le_mono_nonneg_r; lia).
    assert (L2 : rout p * (2 * y ^ n) <= rout p * ((2 * pw + (n - 1)) * q)) by (apply Z.mul_le_mono_nonneg_l; lia).
    clear - U2 L2. lia.
  Qed.

  (* against the EXACT rational constant-weighted-product amount B_out*(1 - (B_in*10^18/N)^n):
       out <= exact + B_out*((2n-1)/2 + n*10^-18)*10^-18 *)
  Lemma int_ratio_out_exact :
    2 * out * (PREC * PREC) * N ^ n <=
      2 * rout p * (PREC * PREC) * (N ^ n - (rin p * PREC) ^ n) + rout p * N ^ n * ((2 * n - 1) * PREC + 2 * n).
  Proof.
    pose proof PREC_pos as HP.
    destruct int_ratio_out_pw as (HN & HA & _ & pw & Hpower & _ & U).
    pose proof (power_quotient_lb _ N n pw HA HN Hn Hpower) as G.
    assert (HNn : 0 < N ^ n) by (apply Z.pow_pos_nonneg; lia).
    assert (U2 : out * PREC * (2 * PREC * N ^ n) <= rout p * (PREC - pw) * (2 * PREC * N ^ n))
      by (apply Z.mul_le_mono_nonneg_r; [nia|exact U]).
    apply (Z.mul_le_mono_nonneg_l _ _ (rout p) HBo) in G. clear - U2 G. lia.
  Qed.

  (* in units of the output token: out <= floor(exact) + k whenever the slack B_out*((2n-1)/2 + n*10^-18)/10^18 is at
     most k. ONE unit (k = 1) is enough for B_out <= 6.6*10^17 when n = 2, <= 4*10^17 - 1 when n = 3, <= 2.8*10^17
     when n = 4 *)
  Lemma int_ratio_out_units k :
    rout p * ((2 * n - 1) * PREC + 2 * n) <= k * (2 * (PREC * PREC)) ->
    out <= (rout p * (N ^ n - (rin p * PREC) ^ n)) / N ^ n + k.
  Proof.
    intros Hb. pose proof PREC_pos as HP.
    pose proof int_ratio_out_exact as X. destruct int_ratio_out_pw as (HN & _).
    assert (HNn : 0 < N ^ n) by (apply Z.pow_pos_nonneg; lia).
    apply (le_div_units _ _ _ (2 * (PREC * PREC))); [nia|exact HNn|].
    apply (Z.mul_le_mono_nonneg_r _ _ (N ^ n)) in Hb; [|lia]. clear - X Hb. lia.
  Qed.
End IntegerRatioOut.

Section IntegerRatioIn.
  Variable p : pool.
  Variables o fee inn slip n : Z.
  Hypothesis Hno : use_oracle p = false.
  Hypothesis Hwo : w_out p = n * w_in p.
  Hypothesis Hn : 1 <= n.
  Hypothesis HBi : 0 <= rin p.
  Hypothesis Ho : 0 <= o.
  Hypothesis Hfee : 0 <= fee.
  Hypothesis Hcalc : calc_in p o fee = Ok (inn, slip).
  Let R := rout p - o.
  Let y := dquo (rout p * PREC) (R * PREC).

  (* the charge is at least B_in*(y^n*(1 - (n-1)/(2*10^18)) - 1) for the rounded base y >= 1 the code computes, and
     y is the nearest 10^-18 to B_out/(B_out - o) (last conjunct: y > exact - (1/2 + 10^-18)*10^-18) *)
  Lemma int_ratio_in_base :
    0 < R /\ PREC <= y /\ 0 < inn /\
    rin p * ((2 * PREC - (n - 1)) * y ^ n - 2 * PREC * PREC ^ n) <= 2 * inn * PREC * PREC ^ n /\
    rout p * (PREC * PREC) < y * PREC * R + (HALF + 1) * R.
  Proof.
    pose proof PREC_pos as HP.
    destruct (calc_in_inv p o fee inn slip Hno Hcalc) as (Hpost & Hwi & Hf & pw & Hpw & Hinn & Hipos).
    fold (rin p) (rout p) in Hpost, Hpw, Hinn.
    replace (rout p * PREC - o * PREC) with (R * PREC) in Hpost, Hpw by (unfold R; ring).
    fold y in Hpw. rewrite Hwo, dquo_int_ratio in Hpw by exact Hwi.
    apply pow_integer in Hpw; [|lia]. destruct Hpw as [Hypos Hpower].
    assert (HR : 0 < R) by nia.
    assert (Hyge : PREC <= y) by (apply dquo_ge_one; unfold R in *; nia).
    destruct (power_lb_ge_one y n pw Hyge Hn Hpower) as [L Hpw1].
    assert (U : rin p * (pw - PREC) <= inn * PREC) by (rewrite Hinn; apply charge_ge; [apply Z.mul_nonneg_nonneg|]; lia).
    split; [exact HR|]. split; [exact Hyge|]. split; [exact Hipos|]. split.
    - assert (Hq : 0 < PREC ^ n) by (apply Z.pow_pos_nonneg; lia).
      set (q := PREC ^ n) in *. set (yn := y ^ n) in *.
      assert (U2 : rin p * (pw - PREC) * (2 * q) <= inn * PREC * (2 * q)) by (apply Z.mul_le_mono_nonneg_r; lia).
      assert (L2 : rin p * ((2 * PREC - (n - 1)) * yn) <= rin p * (2 * pw * q)) by (apply Z.mul_le_mono_nonneg_l; lia).
      clear - U2 L2. lia.
    - destruct (dquo_bounds (rout p * PREC) (R * PREC)) as [_ [D1 _]]; [unfold R in HR; nia|exact Hpost|]. fold y in D1.
      apply Z.mul_lt_mono_pos_r with PREC; [exact HP|]. clear - D1. lia.
  Qed.
End IntegerRatioIn.

(* the theorems instantiate it with the market fixture's 1:3 pool (uusdc 30e9 weight 1, uelys 10e9 weight 3) and with
   the 3:1 witness of the one-unit refutation *)
Definition cp13 (bi bo wi wo : Z) : pool := mkPool bi bo wi wo 0 0 false 0 0 0 0.
