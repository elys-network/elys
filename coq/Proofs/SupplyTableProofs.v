(* C15 - equality of origin sets (lists of classes, up to order and repetition): what compares the model's
   [origin_of] with the translator's own resolution [s_origin] of forwarded parameters in the regenerated table. *)
From Coq Require Import List.
From Elys Require Import Models.Supply.
Import ListNotations.

Definition dexpr_eqb (a b : dexpr) : bool :=
  match a, b with
  | DElys, DElys | DElysGuarded, DElysGuarded | DEden, DEden | DEdenB, DEdenB | DPoolShare, DPoolShare
  | DVaultShare, DVaultShare | DZeroBal, DZeroBal => true
  | DParam f, DParam g => String.eqb f g
  | DOther f, DOther g => String.eqb f g
  | _, _ => false
  end.
Definition same_set (a b : list dexpr) : bool :=
  forallb (fun x => existsb (dexpr_eqb x) b) a && forallb (fun x => existsb (dexpr_eqb x) a) b.
