(* C05: the oracle single-sided join / exit with the weight-breaking fee computed by Models/WeightFee.v:
   each whole function is the one of Models/AmmJoinExit.v at a fee in [0, 0.99], so the value theorems of
   Proofs/AmmJoinExitProofs.v (stated for every fee in [0,1]) apply to it (Props/C05.v); an exit never earns a bonus;
   a join earns one only when it improves the weight distance from above the threshold, at most 0.99 * portion. *)
From Coq Require Import ZArith List Lia.
From Elys Require Import Base.Res Base.ResFacts Base.Zdec Proofs.AmmSwapProofs.
From Elys Require Import Models.WeightFee Proofs.WeightFeeProofs.
From Elys Require Import Models.AmmJoinExit Models.WeightFeeJoinExit.
Import ListNotations.
Open Scope Z_scope.

Section ValidParams.
  Variable prm : wparams.
  Hypothesis Hm : 0 <= wp_mult prm.
  Hypothesis Hp : pow_nonneg (wp_exp prm).
  Hypothesis Hpo : 0 <= wp_portion prm.

  Lemma wb_join_spec init k amt d0 wbf bonus :
    wb_join prm init k amt d0 = Ok (wbf, bonus) ->
    exists fin d1,
      after_swap init 0 k (no_asset init) amt 0 = Ok fin /\ weight_distance fin = Ok d1 /\
      fee_bonus prm d0 d1 wbf bonus.
  Proof.
    intros H. unfold wb_join in H. pose proof WBF_CAP_lt_PREC as HC.
    apply bind_ok in H. destruct H as (fin & Hfin & H).
    apply bind_ok in H. destruct H as (d1 & Hd1 & H). apply bind_chk in H.
    do 6 (apply bind_ok in H; destruct H as (? & _ & H)).   (* the target and oracle weights handed to get_wbf *)
    apply bind_ok in H. destruct H as (f0 & Hf0 & H). apply (get_wbf_range prm Hm Hp) in Hf0.
    unfold wb_decide_join in H. apply bind_chk in H.
    pose proof (dmul_nonneg f0 (wp_portion prm) ltac:(lia) Hpo).
    pose proof (dmul_mono f0 (wp_portion prm) WBF_CAP (wp_portion prm) ltac:(lia) ltac:(lia)).
    exists fin, d1. split; [exact Hfin|]. split; [exact Hd1|]. unfold fee_bonus.
    destruct (Z.ltb_spec (wp_thr prm) d0); [destruct (Z.ltb_spec (d1 - d0) 0)|]; inversion H; subst wbf bonus;
      repeat split; lia.
  Qed.

  Lemma wb_exit_spec init k out d0 f : wb_exit prm init k out d0 = Ok f -> 0 <= f <= WBF_CAP.
  Proof.
    intros H. unfold wb_exit in H.
    destruct (out <? 0); [discriminate|].
    do 9 (apply bind_ok in H; destruct H as (? & _ & H)).   (* everything ahead of get_wbf: only its range matters *)
    exact (get_wbf_range prm Hm Hp _ _ _ _ _ _ _ _ H).
  Qed.

  Lemma join_oracle_wf_spec R S k amt acc prices weights sh R' S' bonus :
    join_oracle_wf R S k amt acc prices weights prm = Ok (sh, R', S', bonus) ->
    exists wbf T d0 fin d1,
      join_oracle R S k amt acc prices weights wbf = Ok (sh, R', S') /\
      tvl R acc prices weights = Ok T /\ T <> 0 /\
      sh = oracle_join_shares S (dmul (nth k prices 0) (dec_of_int amt)) T wbf /\
      weight_distance (assets_of R acc prices weights) = Ok d0 /\
      after_swap (assets_of R acc prices weights) 0 k (no_asset (assets_of R acc prices weights)) amt 0 = Ok fin /\
      weight_distance fin = Ok d1 /\ fee_bonus prm d0 d1 wbf bonus.
  Proof.
    intros H. unfold join_oracle_wf in H.
    destruct (nth k prices 0 =? 0) eqn:E1; [discriminate|].
    apply bind_ok in H. destruct H as [d0 [Hd0 H]].
    apply bind_ok in H. destruct H as [T [HT H]].
    destruct (T =? 0) eqn:E2; [discriminate|].
    apply bind_ok in H. destruct H as [[wbf bn] [Hwb H]].
    apply bind_ok in H. destruct H as [[[sh0 R0] S0] [Hj H]]. inversion H; subst sh0 R0 S0 bn. clear H.
    destruct (wb_join_spec _ _ _ _ _ _ Hwb) as (fin & d1 & Hfin & Hd1 & F).
    exists wbf, T, d0, fin, d1. split; [exact Hj|]. split; [exact HT|]. split; [apply Z.eqb_neq; exact E2|].
    split; [|auto].
    unfold join_oracle in Hj. rewrite E1, HT in Hj. cbn [bind] in Hj. rewrite E2 in Hj. inversion Hj. reflexivity.
  Qed.

  Lemma exit_oracle_wf_spec R S sh k acc prices weights out R' S' bonus :
    exit_oracle_wf R S sh k acc prices weights prm = Ok (out, R', S', bonus) ->
    exists wbf T,
      exit_oracle R S sh k acc prices weights wbf = Ok (out, R', S') /\
      tvl R acc prices weights = Ok T /\ sh < S /\
      out = snd (oracle_exit_out T S sh (nth k prices 0) wbf) /\
      0 <= wbf <= WBF_CAP /\ bonus = - wbf.
  Proof.
    intros H. unfold exit_oracle_wf in H.
    destruct (S <=? sh) eqn:E1; [discriminate|]. apply Z.leb_gt in E1.
    destruct (S =? 0) eqn:E2; [discriminate|].
    apply bind_ok in H. destruct H as [d0 [_ H]].
    apply bind_ok in H. destruct H as [T [HT H]].
    cbv zeta in H.
    apply bind_ok in H. destruct H as [wbf [Hwb H]].
    apply bind_ok in H. destruct H as [[[out0 R0] S0] [He H]]. inversion H; subst out0 R0 S0 bonus. clear H.
    exists wbf, T. split; [exact He|]. split; [exact HT|]. split; [exact E1|].
    split; [|split; [exact (wb_exit_spec _ _ _ _ _ Hwb)|reflexivity]].
    unfold exit_oracle, exit_oracle_gen in He.
    destruct (S <=? sh) eqn:E1'; [discriminate|]. rewrite E2, HT in He. cbn [bind] in He.
    destruct (oracle_exit_out T S sh (nth k prices 0) wbf) as [pre o] eqn:Eo.
    destruct (eff_amount (rsv R k) (nth k acc 0) - pre <? 0); [discriminate|].
    apply bind_ok in He. destruct He as [RR [_ He]]. inversion He. reflexivity.
  Qed.
End ValidParams.
