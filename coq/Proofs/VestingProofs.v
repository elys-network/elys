(* Proofs about Models/Vesting.v (C14): several vesting denoms in one list.  A claim is an explicit function of the
   account ([claim_entry_eq], [claim_loop_eq]); vest / cancel / vest-now are characterised by what they do to the
   account invariant; the state invariant is lifted to histories. *)
From Coq Require Import ZArith List Bool Lia.
From Elys Require Import Base.Res Base.ResFacts Base.ListFacts Models.Vesting.
Import ListNotations.
Open Scope Z_scope.

(* split conjunctions only (never introduces the hypothesis of an implication) *)
Ltac splits := repeat match goal with |- _ /\ _ => split end.

Lemma Forall2_rev {A B} (R : A -> B -> Prop) l l' : Forall2 R l l' -> Forall2 R (rev l) (rev l').
Proof. induction 1; cbn [rev]; [constructor|]. apply Forall2_app; auto. Qed.

Lemma Forall2_impl {A B} (R R' : A -> B -> Prop) l l' :
  (forall a b, R a b -> R' a b) -> Forall2 R l l' -> Forall2 R' l l'.
Proof. intros H. induction 1; constructor; auto. Qed.

Lemma quot_le_total t e n : 0 <= t -> 0 < n -> e <= n -> Z.quot (t * e) n <= t.
Proof.
  intros Ht Hn He. rewrite <- (Z.quot_mul t n) at 2 by lia.
  apply Z.quot_le_mono; [exact Hn|]. apply Z.mul_le_mono_nonneg_l; assumption.
Qed.

Lemma quot_mono t e1 e2 n : 0 <= t -> 0 < n -> 0 <= e1 <= e2 ->
  Z.quot (t * e1) n <= Z.quot (t * e2) n.
Proof. intros Ht Hn He. apply Z.quot_le_mono; [exact Hn|]. apply Z.mul_le_mono_nonneg_l; lia. Qed.

Definition wf_entry (v : ventry) : Prop := 0 <= v_claimed v < v_total v /\ 0 <= v_num v.
Definition live_entry (v : ventry) : Prop := wf_entry v /\ 0 < v_num v.

(* VestedSoFar as a closed formula; [newly] is what a claim pays for one entry *)
Definition vested_z (v : ventry) (h : Z) : Z :=
  if v_num v <=? 0 then v_total v
  else Z.quot (v_total v * Z.min (h - v_start v) (v_num v)) (v_num v).
Definition newly (h : Z) (v : ventry) : Z := Z.max 0 (vested_z v h - v_claimed v).

(* since fix: 3c63217 VestedSoFar cannot fail *)
Lemma vested_so_far_z v h : vested_so_far v h = Ok (vested_z v h).
Proof.
  unfold vested_so_far, vested_z. destruct (v_num v <=? 0); [reflexivity|].
  destruct (Z.ltb_spec (v_num v) (h - v_start v)); [rewrite Z.min_r by lia|rewrite Z.min_l by lia]; reflexivity.
Qed.

Lemma vested_z_le v h : 0 <= v_total v -> vested_z v h <= v_total v.
Proof. intros Ht. unfold vested_z. destruct (Z.leb_spec (v_num v) 0); [lia|]. apply quot_le_total; lia. Qed.

Lemma vested_z_end v h : v_num v <= h - v_start v -> vested_z v h = v_total v.
Proof.
  intros He. unfold vested_z. destruct (Z.leb_spec (v_num v) 0); [reflexivity|].
  rewrite Z.min_r by exact He. apply Z.quot_mul. lia.
Qed.

(* the entry as ClaimVesting writes it back at height [h] *)
Definition claimed_at (h : Z) (v : ventry) : ventry :=
  mkV (v_total v) (Z.max (v_claimed v) (vested_z v h)) (v_start v) (v_num v) (v_den v).

Lemma claim_entry_eq h v : claim_entry true h v = Ok (newly h v, claimed_at h v).
Proof.
  unfold claim_entry, newly, claimed_at. rewrite vested_so_far_z. cbn [bind].
  destruct (Z.ltb_spec (vested_z v h) (v_claimed v)).
  - rewrite !Z.max_l by lia. destruct v; reflexivity.
  - rewrite !Z.max_r by lia. reflexivity.
Qed.

Lemma out_d_cons b v r :
  out_d b (v :: r) = (if Bool.eqb (is0 v) b then v_total v - v_claimed v else 0) + out_d b r.
Proof. reflexivity. Qed.

Lemma out_d_nil b : out_d b [] = 0.
Proof. reflexivity. Qed.

Lemma out_d_app b x y : out_d b (x ++ y) = out_d b x + out_d b y.
Proof. induction x as [|v r IH]; cbn [app]; rewrite ?out_d_cons, ?out_d_nil; lia. Qed.

Lemma out_d_single b v : out_d b [v] = if Bool.eqb (is0 v) b then v_total v - v_claimed v else 0.
Proof. rewrite out_d_cons, out_d_nil. lia. Qed.

Lemma out_d_rev b x : out_d b (rev x) = out_d b x.
Proof. induction x as [|v r IH]; cbn [rev]; [reflexivity|]. rewrite out_d_app, IH, out_d_single, out_d_cons. lia. Qed.

Lemma out_d_nonneg b vs : Forall wf_entry vs -> 0 <= out_d b vs.
Proof.
  induction 1 as [|v r [[? ?] ?] _ IH]; [rewrite out_d_nil; lia|]. rewrite out_d_cons.
  destruct (Bool.eqb (is0 v) b); lia.
Qed.

(* ClaimVesting drops an entry once ClaimedAmount = TotalAmount *)
Definition unfinished (v : ventry) : bool := negb (v_claimed v =? v_total v).
(* paid by a claim in the denom [b] ([true] = ELYS) *)
Definition pay (b : bool) (h : Z) (vs : list ventry) : Z :=
  zsum (map (fun v => if Bool.eqb (is0 v) b then newly h v else 0) vs).

Lemma claim_loop_eq h vs :
  claim_loop true h vs = Ok (pay true h vs, pay false h vs, filter unfinished (map (claimed_at h) vs)).
Proof.
  induction vs as [|v r IH]; cbn [claim_loop]; [reflexivity|]. rewrite claim_entry_eq, IH.
  cbn [bind map filter]. unfold pay, unfinished. cbn [map zsum].
  destruct (is0 v); destruct (v_claimed (claimed_at h v) =? v_total (claimed_at h v)); reflexivity.
Qed.

Definition non0 (v : ventry) : bool := negb (is0 v).

Lemma pay_filter h vs :
  pay true h vs = zsum (map (newly h) (filter is0 vs)) /\ pay false h vs = zsum (map (newly h) (filter non0 vs)).
Proof.
  unfold pay, non0. induction vs as [|v r [IH0 IH1]]; [split; reflexivity|]. cbn [map zsum filter].
  destruct (is0 v); cbn [Bool.eqb negb map zsum]; rewrite IH0, IH1; split; reflexivity.
Qed.

Lemma claim_loop_out b h vs : Forall wf_entry vs ->
  Forall wf_entry (filter unfinished (map (claimed_at h) vs)) /\ 0 <= pay b h vs /\
  out_d b vs = out_d b (filter unfinished (map (claimed_at h) vs)) + pay b h vs.
Proof.
  induction 1 as [|v r Hv _ (IW & IP & IO)]; [splits; [constructor|reflexivity|reflexivity]|].
  destruct Hv as [[Hc Ht] Hn]. pose proof (vested_z_le v h ltac:(lia)) as L.
  cbn [map filter]. unfold pay, newly in *. cbn [map zsum]. rewrite (out_d_cons b v), IO.
  destruct (unfinished (claimed_at h v)) eqn:U; unfold unfinished in U; cbn [claimed_at v_claimed v_total] in U.
  - apply negb_true_iff, Z.eqb_neq in U. rewrite out_d_cons. change (is0 (claimed_at h v)) with (is0 v).
    cbn [claimed_at v_claimed v_total].
    splits; [constructor; [unfold wf_entry; cbn; lia|exact IW]|destruct (Bool.eqb (is0 v) b); lia..].
  - apply negb_false_iff, Z.eqb_eq in U. splits; [exact IW|destruct (Bool.eqb (is0 v) b); lia..].
Qed.

Lemma claim_loop_end h vs :
  Forall wf_entry vs -> Forall (fun v => v_num v <= h - v_start v) vs ->
  filter unfinished (map (claimed_at h) vs) = [] /\ forall b, pay b h vs = out_d b vs.
Proof.
  intros W F. assert (E : filter unfinished (map (claimed_at h) vs) = []).
  { induction W as [|v r [[Hc Ht] _] _ IH]; [reflexivity|]. inversion F as [|? ? Fv Fr]; subst.
    cbn [map filter]. unfold unfinished at 1. cbn [claimed_at v_claimed v_total].
    rewrite (vested_z_end v h Fv), Z.max_r, Z.eqb_refl by lia. exact (IH Fr). }
  split; [exact E|]. intros b. destruct (claim_loop_out b h vs W) as (_ & _ & O). rewrite E in O. exact (eq_sym O).
Qed.

(* what the cancel loop may do to the entry at one position: nothing may be left in it, until the drop-filter has
   run; entries of another denom are not touched at all *)
Definition cancel_rel (v v' : ventry) : Prop :=
  0 <= v_claimed v' <= v_total v' /\ v_num v' = v_num v /\ is0 v' = is0 v /\ (is0 v = false -> v' = v).

Lemma cancel_loop_spec l : forall rem,
  0 <= rem -> Forall wf_entry l ->
  let '(rem', l') := cancel_loop rem l in
  Forall2 cancel_rel l l' /\ out_d true l = out_d true l' + (rem - rem') /\ out_d false l = out_d false l'.
Proof.
  induction l as [|v r IH]; intros rem Hrem Hall; cbn [cancel_loop]; [splits; auto; lia|].
  inversion Hall as [|? ? [[Hc Ht] Hn] Hr]; subst.
  destruct (negb (is0 v) || (v_num v =? 0) || (v_total v =? 0)) eqn:Skip.
  - (* skipped: the entry stays as it is *)
    specialize (IH rem Hrem Hr). destruct (cancel_loop rem r) as [rem' r']. destruct IH as (F & C & C1).
    rewrite !(out_d_cons _ v). splits; try lia. constructor; [|exact F]. unfold cancel_rel. splits; auto; lia.
  - (* an ELYS entry gives up what is asked for, as far as it has not been released *)
    apply orb_false_iff in Skip as [[Hd%negb_false_iff _]%orb_false_iff _].
    specialize (IH (rem - Z.min rem (v_total v - v_claimed v)) ltac:(lia) Hr).
    destruct (cancel_loop _ r) as [rem' r']. destruct IH as (F & C & C1).
    rewrite !out_d_cons. change (is0 (mkV _ _ _ _ (v_den v))) with (is0 v). rewrite Hd.
    cbn [Bool.eqb v_total v_claimed]. splits; try lia. constructor; [|exact F].
    unfold cancel_rel. cbn [v_total v_claimed v_num]. splits; auto; try lia. congruence.
Qed.

(* the final drop-filter of CancelVest removes exactly the entries in which nothing is left; a well-formed entry of
   another denom is still the same entry, so it is none of them *)
Lemma cancel_drop_spec l l' :
  Forall wf_entry l -> Forall2 cancel_rel l l' ->
  Forall wf_entry (filter cancel_keep l') /\ (forall b, out_d b (filter cancel_keep l') = out_d b l') /\
  filter non0 (filter cancel_keep l') = filter non0 l /\
  Forall (fun v => is0 v = false -> cancel_keep v = true) l'.
Proof.
  intros W H. induction H as [|v v' l l' ([Hc Ht] & Hn & Hi & Hs) _ IH]; [splits; auto|].
  inversion W as [|? ? [[_ Hv] Hnn] Wl]; subst. destruct (IH Wl) as (A & B & C & D).
  assert (N : forall x, non0 x = negb (is0 x)) by reflexivity.
  cbn [filter]. change (cancel_keep v') with (negb (v_total v' <=? v_claimed v')).
  destruct (Z.leb_spec (v_total v') (v_claimed v')) as [Hd|Hk]; cbn [negb].
  - assert (I : is0 v = true) by (destruct (is0 v); [reflexivity|rewrite (Hs eq_refl) in Hd; lia]).
    rewrite N, I. splits; [exact A| |exact C|constructor; [congruence|exact D]].
    intros b. rewrite out_d_cons, B. destruct (Bool.eqb (is0 v') b); lia.
  - splits; [constructor; [unfold wf_entry; lia|exact A]| | |constructor; [intros _; apply negb_true_iff, Z.leb_gt, Hk|exact D]].
    + intros b. rewrite !out_d_cons, B. reflexivity.
    + cbn [filter]. rewrite !N, Hi. destruct (is0 v); cbn [negb]; [exact C|]. rewrite (Hs eq_refl), C. reflexivity.
Qed.

(* CancelVest read off its success; [mid] is the list the loop leaves behind, before the drop-filter *)
Lemma cancel_ok d amt a a' :
  Forall wf_entry (a_vs a) -> cancel d amt a = Ok a' ->
  d = 0 /\ 0 < amt /\ exists mid,
    Forall2 cancel_rel (a_vs a) mid /\
    out_d true (a_vs a) = out_d true mid + amt /\ out_d false (a_vs a) = out_d false mid /\
    a' = mkA (a_eden a + amt) (a_elys a) (a_usdc a) (filter cancel_keep mid) (g_in a) (g_released a)
             (g_returned a + amt) (g_in1 a) (g_released1 a) (g_usdc0 a).
Proof.
  intros Hvs H. apply guard_ok in H as [D0%Z.eqb_eq H]. apply guard_ok in H as [A%Z.ltb_lt H].
  pose proof (cancel_loop_spec (rev (a_vs a)) amt ltac:(lia) (Forall_rev Hvs)) as S.
  destruct (cancel_loop amt (rev (a_vs a))) as [rem rvs]. destruct S as (Hf2 & Hout & Hout1).
  apply guard_ok in H as [->%Z.eqb_eq [= <-]]. rewrite out_d_rev in Hout, Hout1.
  apply Forall2_rev in Hf2. rewrite rev_involutive in Hf2.
  splits; auto. exists (rev rvs). rewrite !out_d_rev. splits; auto. lia.
Qed.

Definition wf_acct (a : acct) : Prop :=
  Forall wf_entry (a_vs a) /\ 0 <= a_eden a /\ 0 <= a_usdc a /\
  g_in a = g_released a + g_returned a + outstanding a /\
  g_in1 a = g_released1 a + outstanding1 a /\
  a_usdc a + outstanding1 a = g_usdc0 a /\
  0 <= g_released a /\ 0 <= g_returned a /\ 0 <= g_released1 a.

Definition live_acct (a : acct) : Prop := Forall (fun v => 0 < v_num v) (a_vs a).

Lemma out_d_push b vs amt h n den :
  out_d b (vs ++ [mkV amt 0 h n den]) = out_d b vs + (if Bool.eqb (den =? 0) b then amt else 0).
Proof. rewrite out_d_app, out_d_single. unfold is0. cbn [v_den v_total v_claimed]. destruct (Bool.eqb _ b); lia. Qed.

Lemma wf_push vs amt h n den :
  Forall wf_entry vs -> 0 < amt -> 0 <= n -> Forall wf_entry (vs ++ [mkV amt 0 h n den]).
Proof. intros H A N. apply Forall_app. split; [exact H|]. constructor; [unfold wf_entry; cbn; lia|constructor]. Qed.

Lemma vest_inv h amt p a a' :
  wf_acct a -> 0 <= p_num p -> vest h amt p a = Ok a' ->
  wf_acct a' /\ a_eden a' = a_eden a - amt /\ outstanding a' = outstanding a + amt /\
  outstanding1 a' = outstanding1 a /\ g_usdc0 a' = g_usdc0 a.
Proof.
  intros (Hvs & He & Hu & Hcons & Hcons1 & Hw & Hr & Hret & Hr1) Hp H.
  apply guard_ok in H as [A%Z.ltb_lt H]. apply guard_ok in H as [_ H].
  apply guard_ok in H as [B%Z.leb_le [= <-]]. unfold wf_acct, outstanding, outstanding1 in *.
  cbn [a_vs a_eden a_elys a_usdc g_in g_released g_returned g_in1 g_released1 g_usdc0].
  rewrite !out_d_push. cbn [Z.eqb Bool.eqb]. splits; try lia. apply wf_push; assumption.
Qed.

Lemma vest_liquid_inv h amt li a a' :
  wf_acct a -> (match li with Some x => 0 <= l_num x | None => True end) -> vest_liquid h amt li a = Ok a' ->
  wf_acct a' /\ 0 < amt /\
  a_eden a' = a_eden a /\ a_elys a' = a_elys a /\ a_usdc a' = a_usdc a - amt /\ g_in1 a' = g_in1 a + amt /\
  outstanding a' = outstanding a /\ outstanding1 a' = outstanding1 a + amt /\ g_usdc0 a' = g_usdc0 a /\
  exists x, li = Some x /\ a_vs a' = a_vs a ++ [mkV amt 0 h (l_num x) 1].
Proof.
  intros (Hvs & He & Hu & Hcons & Hcons1 & Hw & Hr & Hret & Hr1) Hp H.
  apply guard_ok in H as [A%Z.ltb_lt H]. apply guard_ok in H as [B%Z.leb_le H].
  destruct li as [x|]; [|discriminate]. apply guard_ok in H as [_ [= <-]].
  unfold wf_acct, outstanding, outstanding1 in *.
  cbn [a_vs a_eden a_elys a_usdc g_in g_released g_returned g_in1 g_released1 g_usdc0].
  rewrite !out_d_push. cbn [Z.eqb Bool.eqb]. splits; try lia; [apply wf_push; assumption|eauto].
Qed.

Lemma claim_eq h a :
  claim h a = Ok (mkA (a_eden a) (a_elys a + pay true h (a_vs a)) (a_usdc a + pay false h (a_vs a))
                      (filter unfinished (map (claimed_at h) (a_vs a)))
                      (g_in a) (g_released a + pay true h (a_vs a)) (g_returned a)
                      (g_in1 a) (g_released1 a + pay false h (a_vs a)) (g_usdc0 a)).
Proof. unfold claim, claim_gen. rewrite claim_loop_eq. reflexivity. Qed.

(* no assumption on the schedule lengths: zero-block entries included *)
Lemma claim_inv h a a' :
  wf_acct a -> claim h a = Ok a' ->
  wf_acct a' /\
  0 <= a_elys a' - a_elys a /\ a_elys a' - a_elys a = outstanding a - outstanding a' /\
  0 <= a_usdc a' - a_usdc a /\ a_usdc a' - a_usdc a = outstanding1 a - outstanding1 a' /\
  g_usdc0 a' = g_usdc0 a.
Proof.
  intros (Hvs & He & Hu & Hcons & Hcons1 & Hw & Hr & Hret & Hr1) H. rewrite claim_eq in H. injection H as <-.
  destruct (claim_loop_out true h _ Hvs) as (W' & P0 & O0), (claim_loop_out false h _ Hvs) as (_ & P1 & O1).
  unfold wf_acct, outstanding, outstanding1 in *.
  cbn [a_vs a_eden a_elys a_usdc g_in g_released g_returned g_in1 g_released1 g_usdc0].
  splits; try lia; exact W'.
Qed.

Lemma cancel_inv d amt a a' :
  wf_acct a -> cancel d amt a = Ok a' ->
  wf_acct a' /\ (live_acct a -> live_acct a') /\
  a_eden a' = a_eden a + amt /\ a_elys a' = a_elys a /\ a_usdc a' = a_usdc a /\
  outstanding a' = outstanding a - amt /\ outstanding1 a' = outstanding1 a /\
  g_returned a' = g_returned a + amt /\
  g_released a' = g_released a /\ g_usdc0 a' = g_usdc0 a /\ d = 0 /\ 0 < amt.
Proof.
  intros (Hvs & He & Hu & Hcons & Hcons1 & Hw & Hr & Hret & Hr1) H.
  destruct (cancel_ok _ _ _ _ Hvs H) as (D0 & A & mid & Hf2 & Hout & Hout1 & ->).
  destruct (cancel_drop_spec _ _ Hvs Hf2) as (Fw & Fo & _).
  unfold wf_acct, live_acct, outstanding, outstanding1 in *.
  cbn [a_vs a_eden a_elys a_usdc g_in g_released g_returned g_in1 g_released1 g_usdc0].
  rewrite !Fo. splits; try lia; auto.
  (* the loop keeps NumBlocks position by position, the filter only drops *)
  intros L. apply (incl_Forall (incl_filter _ _)).
  clear - Hf2 L. induction Hf2 as [|x y l l' (_ & Hn & _) _ IH]; [constructor|].
  inversion L; subst. constructor; [lia|auto].
Qed.

Lemma vest_now_inv amt p a a' :
  wf_acct a -> 0 < p_factor p -> vest_now amt p a = Ok a' ->
  wf_acct a' /\ a_vs a' = a_vs a /\
  a_eden a' = a_eden a - amt /\ a_elys a' = a_elys a + Z.quot amt (p_factor p) /\
  0 <= Z.quot amt (p_factor p) <= amt /\ a_usdc a' = a_usdc a /\ g_usdc0 a' = g_usdc0 a.
Proof.
  intros (Hvs & He & Hu & Hcons & Hcons1 & Hw & Hr & Hret & Hr1) Hf H.
  apply guard_ok in H as [A%Z.ltb_lt H]. apply guard_ok in H as [_ H].
  apply guard_ok in H as [B%Z.leb_le H]. apply guard_ok in H as [_ [= <-]].
  unfold wf_acct, outstanding, outstanding1 in *.
  cbn [a_vs a_eden a_elys a_usdc g_in g_released g_returned g_in1 g_released1 g_usdc0].
  splits; try lia; auto.
  - apply Z.quot_pos; lia.
  - apply Z.quot_le_upper_bound; [exact Hf|]. clear - A Hf. nia.
Qed.

Definition wf_params (p : params) : Prop := 0 <= p_num p /\ 0 <= p_max p /\ 0 < p_factor p.
Definition wf_linfo (l : option linfo) : Prop :=
  match l with Some x => 0 <= l_num x /\ 0 <= l_max x | None => True end.

Definition custody (s : state) : Z := zsum (map outstanding1 (s_accts s)).

Definition Inv (s : state) : Prop :=
  wf_params (s_p s) /\ wf_linfo (s_l s) /\ Forall wf_acct (s_accts s) /\ s_mod s = custody s.
(* governance never configured a zero-length ELYS schedule and no entry has zero blocks *)
Definition Live (s : state) : Prop := 0 < p_num (s_p s) /\ Forall live_acct (s_accts s).

Lemma upd_nth_length {A} l i (x : A) : length (upd_nth i x l) = length l.
Proof. apply length_upd_nth. Qed.

Lemma wf_dflt : wf_acct dflt_acct.
Proof. unfold wf_acct, outstanding, outstanding1. cbn. splits; try lia. constructor. Qed.

Lemma inv_get s i : Inv s -> wf_acct (get_acct s i).
Proof. intros (_ & _ & Ha & _). unfold get_acct. apply Forall_nth_dflt; [exact Ha|exact wf_dflt]. Qed.

(* the ghost "initial wallet" of every account, and the number of accounts, never change *)
Definition same_ghost (s s' : state) : Prop := map g_usdc0 (s_accts s') = map g_usdc0 (s_accts s).

(* a handler run on one account, the module balance then set to [m]: the invariant is kept when the new account is
   well-formed and [m] follows what its liquid schedules owe *)
Lemma on_acct_inv s i f s1 :
  Inv s -> on_acct s i f = Ok s1 ->
  exists a', f (get_acct s i) = Ok a' /\ s1 = set_acct s i a' /\ get_acct s1 i = a' /\
    forall m, wf_acct a' -> g_usdc0 a' = g_usdc0 (get_acct s i) ->
      m = s_mod s - outstanding1 (get_acct s i) + outstanding1 a' ->
      Inv (set_mod s1 m) /\ same_ghost s (set_mod s1 m).
Proof.
  intros (Hp & Hl & Ha & Hm) H. unfold on_acct in H.
  destruct (Nat.ltb_spec i (length (s_accts s))) as [Hi|]; [|discriminate].
  apply bind_ok in H as (a' & V & [= <-]). exists a'.
  splits; [exact V|reflexivity|apply nth_upd_nth_same, Hi|]. intros m W G ->.
  unfold Inv, same_ghost, custody, get_acct in *. cbn [set_mod set_acct s_p s_l s_mod s_accts]. splits; auto.
  - apply Forall_upd_nth; assumption.
  - rewrite (zsum_map_upd_nth outstanding1 _ _ _ dflt_acct Hi). lia.
  - exact (map_upd_nth_same g_usdc0 _ _ _ dflt_acct Hi G).
Qed.

Lemma gov_guard n mx f : (0 <=? n) && (0 <=? mx) && (0 <? f) = true -> 0 <= n /\ 0 <= mx /\ 0 < f.
Proof. intros [[Gn%Z.leb_le Gm%Z.leb_le]%andb_prop Gf%Z.ltb_lt]%andb_prop. auto. Qed.

Lemma step_inv s o s' : Inv s -> step s o = Ok s' -> Inv s' /\ same_ghost s s'.
Proof.
  intros HI H. pose proof (inv_get s) as Wa. pose proof HI as (Hp & Hl & Ha & Hm).
  destruct o as [i h amt|i h|i d amt|i amt|n mx f|b|i h amt|n mx f]; cbn [step step_gen] in H.
  - destruct (on_acct_inv _ _ _ _ HI H) as (a' & V & -> & _ & K).
    destruct (vest_inv _ _ _ _ _ (Wa i HI) (proj1 Hp) V) as (W & _ & _ & O1 & G).
    apply (K (s_mod s)); auto; lia.
  - apply bind_ok in H as (s1 & OA & H). apply guard_ok in H as [_ [= <-]].
    destruct (on_acct_inv _ _ _ _ HI OA) as (a' & V & -> & E & K). rewrite E.
    destruct (claim_inv h _ _ (Wa i HI) V) as (W & _ & _ & _ & O1 & G). apply K; auto; lia.
  - destruct (on_acct_inv _ _ _ _ HI H) as (a' & V & -> & _ & K).
    destruct (cancel_inv _ _ _ _ (Wa i HI) V) as (W & _ & _ & _ & _ & _ & O1 & _ & _ & G & _).
    apply (K (s_mod s)); auto; lia.
  - destruct (on_acct_inv _ _ _ _ HI H) as (a' & V & -> & _ & K).
    destruct (vest_now_inv _ _ _ _ (Wa i HI) (proj2 (proj2 Hp)) V) as (W & Evs & _ & _ & _ & _ & G).
    apply (K (s_mod s)); auto. unfold outstanding1. rewrite Evs. lia.
  - apply bind_ok in H as (p & G & [= <-]). apply guard_ok in G as [G%gov_guard [= <-]].
    split; [|reflexivity]. unfold Inv, wf_params, custody. cbn. splits; auto; apply G.
  - injection H as <-. split; [|reflexivity]. unfold Inv, wf_params, custody. cbn. splits; auto; apply Hp.
  - apply bind_ok in H as (s1 & OA & [= <-]).
    destruct (on_acct_inv _ _ _ _ HI OA) as (a' & V & -> & _ & K).
    assert (Hl' : match s_l s with Some x => 0 <= l_num x | None => True end).
    { unfold wf_linfo in Hl. destruct (s_l s); [tauto|exact I]. }
    destruct (vest_liquid_inv _ _ _ _ _ (Wa i HI) Hl' V) as (W & _ & _ & _ & _ & _ & _ & O1 & G & _).
    apply K; auto; lia.
  - apply bind_ok in H as (l & G & [= <-]). apply guard_ok in G as [G%gov_guard [= <-]].
    split; [|reflexivity]. unfold Inv, wf_linfo, custody. cbn. splits; auto; apply G.
Qed.

Theorem run_inv ops s : Inv s -> Inv (run s ops) /\ same_ghost s (run s ops).
Proof.
  intros H. apply (execs_inv (fun s' => Inv s' /\ same_ghost s s') (fun _ => True) step);
    [|apply Forall_all; auto|split; [exact H|reflexivity]].
  intros s1 o s' _ [H1 G1] E. destruct (step_inv _ _ _ H1 E) as [H2 G2]. split; [exact H2|exact (eq_trans G2 G1)].
Qed.

Definition init_ok (x : Z * Z * Z) : Prop := let '(e, _, u) := x in 0 <= e /\ 0 <= u.

Lemma init_inv p l : wf_params p -> Forall init_ok l -> Inv (init_state p l).
Proof.
  intros Hp Hl. unfold Inv, custody. cbn [init_state s_p s_l s_mod s_accts wf_linfo]. splits; auto.
  - induction Hl as [|[[e y] u] r [He Hu] _ IH]; cbn [map]; constructor; auto.
    unfold wf_acct, init_acct, outstanding, outstanding1; cbn. splits; auto; lia.
  - clear. induction l as [|[[e y] u] r IH]; cbn [map zsum]; [reflexivity|]. rewrite <- IH. reflexivity.
Qed.

Lemma init_ghost p l : map g_usdc0 (s_accts (init_state p l)) = map (fun '(_, _, u) => u) l.
Proof. cbn [init_state s_accts]. rewrite map_map. apply map_ext. intros [[e y] u]. reflexivity. Qed.

(* conservation per denom, for every account after every history:
   Eden put into vesting = ELYS released + Eden returned + still outstanding (ELYS schedules);
   liquid coins put into vesting = released + still outstanding (liquid schedules);
   wallet + still outstanding = the initial wallet; the module holds exactly what all liquid schedules still owe *)
Theorem conservation p l ops i :
  wf_params p -> Forall init_ok l ->
  let s := run (init_state p l) ops in
  (i < length (s_accts s))%nat ->
  let a := get_acct s i in
  g_in a = g_released a + g_returned a + outstanding a /\
  g_in1 a = g_released1 a + outstanding1 a /\
  a_usdc a + outstanding1 a = nth i (map (fun '(_, _, u) => u) l) 0 /\ 0 <= a_usdc a /\
  Forall (fun v => 0 <= v_claimed v < v_total v) (a_vs a) /\
  s_mod s = zsum (map outstanding1 (s_accts s)) /\
  length (s_accts s) = length l.
Proof.
  intros Hp Hl s Hi a.
  destruct (run_inv ops _ (init_inv p l Hp Hl)) as [HI G]. fold s in HI, G.
  destruct (inv_get s i HI) as (Hvs & _ & Hu & Hc & Hc1 & Hw & _). fold a in Hvs, Hu, Hc, Hc1, Hw.
  unfold same_ghost in G. rewrite init_ghost in G.
  splits; auto.
  - rewrite Hw, <- G. unfold a, get_acct. change 0 with (g_usdc0 dflt_acct). rewrite map_nth. reflexivity.
  - eapply Forall_impl; [|exact Hvs]. intros v [H _]. exact H.
  - apply HI.
  - rewrite <- (map_length g_usdc0), G, map_length. reflexivity.
Qed.

Lemma claim_step_ok s i h :
  Inv s -> (i < length (s_accts s))%nat ->
  exists s', step s (OClaim i h) = Ok s' /\
    0 <= a_elys (get_acct s' i) - a_elys (get_acct s i) /\
    a_elys (get_acct s' i) - a_elys (get_acct s i) = outstanding (get_acct s i) - outstanding (get_acct s' i) /\
    0 <= a_usdc (get_acct s' i) - a_usdc (get_acct s i) /\
    a_usdc (get_acct s' i) - a_usdc (get_acct s i) = outstanding1 (get_acct s i) - outstanding1 (get_acct s' i) /\
    s_mod s' = s_mod s - (a_usdc (get_acct s' i) - a_usdc (get_acct s i)).
Proof.
  intros HI Hi. pose proof (claim_eq h (get_acct s i)) as Hc.
  destruct (claim_inv h _ _ (inv_get s i HI) Hc) as (W & Hpos & Hout & Hpos1 & Hout1 & _).
  set (a' := mkA _ _ _ _ _ _ _ _ _ _) in *.
  assert (G : get_acct (set_acct s i a') i = a') by (apply nth_upd_nth_same, Hi).
  (* the module holds at least what this account's liquid schedules still owe *)
  assert (Hge : outstanding1 (get_acct s i) <= s_mod s).
  { destruct HI as (_ & _ & Ha & ->). apply zsum_map_ge_nth; [|exact Hi].
    eapply Forall_impl; [|exact Ha]. intros x (Hx & _). apply out_d_nonneg, Hx. }
  assert (0 <= outstanding1 a') by apply out_d_nonneg, W.
  cbn [step step_gen]. unfold on_acct. rewrite (proj2 (Nat.ltb_lt _ _) Hi). unfold claim in Hc. rewrite Hc.
  cbn [bind]. rewrite G. unfold guard.
  destruct (Z.leb_spec (a_usdc a' - a_usdc (get_acct s i)) (s_mod s)); [|lia].
  eexists. split; [reflexivity|].
  change (get_acct (set_mod (set_acct s i a') _) i) with (get_acct (set_acct s i a') i).
  rewrite G. cbn [set_mod s_mod]. splits; auto.
Qed.

(* the pre-fix code: claim - cancel - claim panics (the defect repaired by the fix: commit); a liquid schedule
   of another denom sits in front of the ELYS schedule *)
Definition refute_ops : list op :=
  [OGovL 50 10 1; OVestLiquid 0 9 300; OVest 0 10 900; OClaim 0 60; OCancel 0 0 400; OClaim 0 61].
Definition refute_init : state := init_state (mkP 100 10 90 false) [(1000, 0, 500)].
