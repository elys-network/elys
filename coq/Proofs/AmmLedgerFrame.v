(* C01, level A of Models/AmmLedger.v: what a primitive step changes, pointwise; exactness, frame, the invariant and
   the histories follow from that one description. *)
From Coq Require Import ZArith List Bool Lia.
From Elys Require Import Base.Res Base.ResFacts Base.Fn Models.AmmLedger Proofs.AmmLedgerProofs.
Import ListNotations.
Open Scope Z_scope.

Definition denom_of (o : aop) : nat := match o with AIn _ d _ | AOut _ d _ | ADonate _ d _ => d end.
Definition amt_of (o : aop) : Z := match o with AIn _ _ a | AOut _ _ a | ADonate _ _ a => a end.

Definition d_reserve (o : aop) : Z := match o with AIn _ _ a => a | AOut _ _ a => - a | ADonate _ _ _ => 0 end.
Definition d_bank (o : aop) : Z := match o with AIn _ _ a => a | AOut _ _ a => - a | ADonate _ _ a => a end.
Definition d_donated (o : aop) : Z := match o with ADonate _ _ a => a | _ => 0 end.

Lemma astep_effect s o s' : astep s o = Ok s' ->
  0 <= amt_of o /\ moves s s' (pool_of o) (denom_of o) (d_reserve o) (d_bank o) (d_donated o).
Proof.
  destruct o as [p0 d0 a|p0 d0 a|p0 d0 a]; cbn [astep pool_of denom_of amt_of d_reserve d_bank d_donated]; intros H;
    apply guard_ok in H as [A H]; apply Z.leb_le in A; (split; [exact A|]).
  - cbn in H. injection H as <-. split; cbn; [intros p d|intros d; apply upd_add].
    rewrite !upd2_add. destruct (_ && _); lia.
  - unfold bank_out in H. destruct (pbank s p0 d0 <? a); [discriminate|]. unfold remove_book in H. cbn in H.
    destruct (reserve s p0 d0 - a <? 0); [discriminate|]. destruct (liq s d0 <? a); [discriminate|].
    injection H as <-. unfold Z.sub. split; cbn; [intros p d|intros d; apply upd_add].
    rewrite !upd2_add. destruct (_ && _); lia.
  - cbn in H. injection H as <-. split; cbn; [intros p d|intros d; destruct (Nat.eqb d d0); lia].
    rewrite !upd2_add. destruct (_ && _); lia.
Qed.

Lemma astep_ok_amount s o s' : astep s o = Ok s' -> 0 <= amt_of o.
Proof. intros H. apply (astep_effect s o s' H). Qed.

Lemma astep_frame s o s' : astep s o = Ok s' ->
  (forall p d, (p <> pool_of o \/ d <> denom_of o) ->
     reserve s' p d = reserve s p d /\ pbank s' p d = pbank s p d /\ donated s' p d = donated s p d) /\
  (forall d, d <> denom_of o -> liq s' d = liq s d).
Proof.
  intros H. destruct (astep_effect s o s' H) as (_ & Hm & Hq). split.
  - intros p d Hne. destruct (Hm p d) as (-> & -> & ->).
    destruct (Nat.eqb_spec p (pool_of o)), (Nat.eqb_spec d (denom_of o)); cbn; lia.
  - intros d Hne. rewrite Hq. destruct (Nat.eqb_spec d (denom_of o)); [contradiction|lia].
Qed.

Lemma d_bank_sum o : 0 <= amt_of o -> 0 <= d_donated o /\ d_bank o = d_reserve o + d_donated o.
Proof. destruct o; cbn; lia. Qed.

Lemma astep_inv ps s o s' : NoDup ps -> Inv ps s -> In (pool_of o) ps -> astep s o = Ok s' -> Inv ps s'.
Proof.
  intros ND HI Hin H. destruct (astep_effect s o s' H) as (A & Hm). destruct (d_bank_sum o A) as (G & B).
  exact (Inv_move ps ND s s' _ _ _ _ _ HI Hin G B Hm).
Qed.

Theorem arun_inv ps : NoDup ps ->
  forall h s, Forall (Forall (fun o => In (pool_of o) ps)) h -> Inv ps s -> Inv ps (arun s h).
Proof.
  intros ND. apply (txs_inv (Inv ps) _ astep asteps (fun _ => eq_refl) (fun _ _ _ => eq_refl)).
  intros s o s' Hin HI. exact (astep_inv ps s o s' ND HI Hin).
Qed.

(* bank = reserve + donations needs neither a list of pools nor that the pools named exist *)
Theorem arun_booked h s : Booked s -> Booked (arun s h).
Proof.
  apply (txs_inv Booked (fun _ => True) astep asteps (fun _ => eq_refl) (fun _ _ _ => eq_refl)); [|apply Forall_Forall_in; auto].
  intros s1 o s2 _ Hb H. destruct (astep_effect s1 o s2 H) as (A & Hm). destruct (d_bank_sum o A) as (G & B).
  exact (Booked_move s1 s2 _ _ _ _ _ Hb G B Hm).
Qed.

Definition amm_empty : amm := mkAmm (fun _ _ => 0) (fun _ _ => 0) (fun _ => 0) (fun _ _ => 0).

Lemma inv_empty ps : Inv ps amm_empty.
Proof. split; [intros p d; cbn; lia|intros d; cbn; rewrite sumf_zero; reflexivity]. Qed.

Lemma atx_other_pools s l p : (forall o, In o l -> pool_of o <> p) ->
  forall d, reserve (atx s l) p d = reserve s p d /\ pbank (atx s l) p d = pbank s p d /\
            donated (atx s l) p d = donated s p d.
Proof.
  intros Hp. apply Forall_forall in Hp.
  pose (R := fun s s' : amm => forall d,
    reserve s' p d = reserve s p d /\ pbank s' p d = pbank s p d /\ donated s' p d = donated s p d).
  assert (Rrefl : forall s, R s s) by (intros s1 d; auto).
  apply (run_tx_rel R); [apply Rrefl|]. intros s'.
  apply (steps_rel R (fun o => pool_of o <> p) Rrefl) with (step := astep) (steps := asteps); auto.
  - intros s1 s2 s3 H12 H23 d. destruct (H12 d) as (<- & <- & <-). apply H23.
  - intros s1 o s2 Ho H d. apply (astep_frame s1 o s2 H). left. congruence.
Qed.
