(* C09, exactness and frame of the perpetual aggregates of Models/PerpLedger.v. The inversion of a step, [pstep_ok], is
   here because the invariant in Proofs/PerpLedgerProofs.v is proved from it as well. *)
From Coq Require Import ZArith List.
From Elys Require Import Base.Res Base.ResFacts Base.Fn Models.SumLedger Proofs.SumLedgerProofs Models.PerpLedger.
Import ListNotations.
Open Scope Z_scope.

Definition mtp_of (o : pop) : nat := match o with PNew k | PDelta k _ _ | PDel k => k end.

Lemma pstep_ok fields s o s' : pstep fields s o = Ok s' ->
  match o with
  | PNew k => ~ In k (live s) /\ s' = mkPerp (pp s) (agg s) (k :: live s) (cnt s + 1)
  | PDelta k f d => In k (live s) /\ In f fields /\ 0 <= pp s f k + d /\
      s' = mkPerp (upd2 (pp s) f k (pp s f k + d)) (upd (agg s) f (agg s f + d)) (live s) (cnt s)
  | PDel k => In k (live s) /\ (forall f, In f fields -> pp s f k = 0) /\
      s' = mkPerp (pp s) (agg s) (remove_key k (live s)) (cnt s - 1)
  end.
Proof.
  destruct o as [k|k f d|k]; cbn [pstep]; rewrite <- ?mem_key_In; destruct (mem_key k (live s)); cbn [negb orb];
    intros H; try discriminate.
  - injection H as <-. auto.
  - destruct (mem_key f fields); [|discriminate]. cbn [negb] in H.
    destruct (pp s f k + d <? 0) eqn:N; [discriminate|]. apply Z.ltb_ge in N. injection H as <-. auto.
  - destruct (forallb (fun f => pp s f k =? 0) fields) eqn:F; [|discriminate]. injection H as <-.
    rewrite forallb_forall in F. repeat split; auto. intros f Hf. apply Z.eqb_eq. exact (F f Hf).
Qed.

Lemma pstep_exact fields s o s' : pstep fields s o = Ok s' ->
  match o with
  | PDelta k f d =>
      pp s' f k = pp s f k + d /\ agg s' f = agg s f + d /\ 0 <= pp s' f k /\
      (forall f', f' <> f -> agg s' f' = agg s f') /\
      (forall f' k', (f' <> f \/ k' <> k) -> pp s' f' k' = pp s f' k') /\ cnt s' = cnt s /\ live s' = live s
  | PNew k => (forall f, agg s' f = agg s f) /\ (forall f k', pp s' f k' = pp s f k') /\ cnt s' = cnt s + 1
  | PDel k => (forall f, agg s' f = agg s f) /\ (forall f k', pp s' f k' = pp s f k') /\ cnt s' = cnt s - 1 /\
              (forall f, In f fields -> pp s f k = 0)
  end.
Proof.
  intros E. apply pstep_ok in E. destruct o as [k|k f d|k].
  - destruct E as (_ & ->). cbn. auto.
  - destruct E as (_ & _ & N & ->). cbn. rewrite upd2_same, upd_same. repeat split; auto.
    + intros f' Hf. apply upd_other. exact Hf.
    + intros f' k' H. apply upd2_other. exact H.
  - destruct E as (_ & Z0 & ->). cbn. auto.
Qed.

Lemma pstep_other_mtps fields s o s' : pstep fields s o = Ok s' ->
  forall k', k' <> mtp_of o -> forall f, pp s' f k' = pp s f k'.
Proof.
  intros E k' Hk f. pose proof (pstep_exact fields s o s' E) as X. destruct o as [k|k f0 d|k]; cbn [mtp_of] in Hk.
  - apply X.
  - apply X. right. exact Hk.
  - apply X.
Qed.

Lemma prun_other_mtps fields h : forall s k', (forall l o, In l h -> In o l -> mtp_of o <> k') ->
  forall f, pp (prun fields s h) f k' = pp s f k'.
Proof.
  intros s k' Hk. apply Forall_Forall_in in Hk. revert s Hk.
  apply (txs_rel (fun s s' => forall f, pp s' f k' = pp s f k') (fun o => mtp_of o <> k') (fun _ _ => eq_refl))
    with (step := pstep fields) (steps := psteps fields); auto.
  - intros s1 s2 s3 H12 H23 f. rewrite H23. apply H12.
  - intros s o s' Ho H. apply (pstep_other_mtps fields s o s' H). congruence.
Qed.
