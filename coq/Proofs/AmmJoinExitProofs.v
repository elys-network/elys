(* Proofs about Models/AmmJoinExit.v (C05): the all-asset join and the pro-rata exit are fair asset by asset and never
   lower the reserve per share, along every history; a token list the join accepts is a coin set in pool order; value
   bounds of the single-sided oracle join / exit and of the single-asset join of a weighted pool (given the value of
   Pow); the witnesses of the two refuted claims. All statements are over unbounded Z. *)
From Coq Require Import ZArith List Bool Lia.
From Elys Require Import Base.Res Base.Zdec Base.ResFacts Base.ListFacts Models.AmmJoinExit.
Import ListNotations.
Open Scope Z_scope.

(* two rounded-down ratios with a common middle term m / p compose: a/c <= m/p <= e/d *)
Lemma cross_le p m a c d e : 0 < p -> 0 <= c -> 0 <= d -> a * p <= m * c -> m * d <= e * p -> a * d <= e * c.
Proof.
  intros Hp Hc Hd H1 H2. apply (Z.mul_le_mono_pos_l _ _ p Hp).
  assert (a * p * d <= m * c * d) by (apply Z.mul_le_mono_nonneg_r; assumption).
  assert (m * d * c <= e * p * c) by (apply Z.mul_le_mono_nonneg_r; assumption).
  lia.
Qed.

Lemma ratio_bound a r : 0 <= a -> 0 < r ->
  0 <= Z.quot (a * PREC) r /\ Z.quot (a * PREC) r * r <= a * PREC.
Proof.
  intros Ha Hr. assert (0 <= a * PREC) by (apply Z.mul_nonneg_nonneg; [exact Ha|discriminate]).
  split; [apply Z.quot_pos; assumption|]. rewrite Z.mul_comm. apply Z.mul_quot_le; lia.
Qed.

Lemma exit_amt_bound ratio r : 0 <= ratio -> 0 <= r ->
  0 <= exit_amt ratio r /\ exit_amt ratio r * PREC <= ratio * r.
Proof.
  intros H1 H2. unfold exit_amt, dmul_int. assert (H : 0 <= ratio * r) by (apply Z.mul_nonneg_nonneg; assumption).
  destruct (trunc_int_bounds _ H) as (_ & _ & T). destruct (Z.leb_spec (trunc_int (ratio * r)) 0); lia.
Qed.

Lemma Forall_nth0 (P : Z -> Prop) l : (forall i, (i < length l)%nat -> P (nth i l 0)) -> Forall P l.
Proof. intros H. apply Forall_nth. intros i d Hi. rewrite (nth_indep _ d 0) by exact Hi. apply H. exact Hi. Qed.

Lemma fold_min_le rs : forall init,
  fold_left Z.min rs init <= init /\ forall r, In r rs -> fold_left Z.min rs init <= r.
Proof.
  induction rs as [|x rs IH]; intros init; cbn [fold_left].
  - split; [lia|intros r []].
  - destruct (IH (Z.min init x)) as [A B]. split; [lia|]. intros r [->|Hin]; [lia|auto].
Qed.

Lemma fold_min_ge rs lo : forall init, lo <= init -> (forall r, In r rs -> lo <= r) -> lo <= fold_left Z.min rs init.
Proof.
  induction rs as [|x rs IH]; intros init Hi Hall; cbn [fold_left]; [lia|].
  apply IH; [|intros r Hr; apply Hall; right; exact Hr].
  assert (lo <= x) by (apply Hall; left; reflexivity). lia.
Qed.

Lemma pos_nth R i : Forall (fun r => 0 < r) R -> (i < length R)%nat -> 0 < nth i R 0.
Proof. intros HR Hi. apply (proj1 (Forall_nth _ R) HR). exact Hi. Qed.

Lemma nth_map_seq (g : nat -> Z) n i : (i < n)%nat -> nth i (map g (seq 0 n)) 0 = g i.
Proof.
  intros H. rewrite (nth_indep _ 0 (g 0%nat)) by (rewrite map_length, seq_length; lia).
  rewrite map_nth. rewrite seq_nth by lia. reflexivity.
Qed.

Lemma nth_map_Z (g : Z -> Z) l i : (i < length l)%nat -> nth i (map g l) 0 = g (nth i l 0).
Proof.
  intros H. rewrite (nth_indep _ 0 (g 0)) by (rewrite map_length; lia). apply map_nth.
Qed.

Lemma enum_length amts : length (enum amts) = length amts.
Proof. unfold enum, coin. rewrite combine_length, seq_length. lia. Qed.

Lemma enum_nth amts i : (i < length amts)%nat -> nth i (enum amts) (0%nat, 0) = (i, nth i amts 0).
Proof.
  intros H. unfold enum, coin. rewrite combine_nth by (rewrite seq_length; reflexivity).
  rewrite seq_nth by lia. reflexivity.
Qed.

Lemma enum_in amts i : (i < length amts)%nat -> In (i, nth i amts 0) (enum amts).
Proof.
  intros H. rewrite <- enum_nth by exact H. apply nth_In. rewrite enum_length. exact H.
Qed.

(* what safeAdd coalesces for denom s + i out of a well-formed coin set whose first denom is s: its i-th coin *)
Section SumDenom.
  Context (f : coin -> coin) (Hf : forall c, fst (f c) = fst c).

  Lemma sum_denom_below amts d : forall s, (d < s)%nat -> sum_denom d (map f (combine (seq s (length amts)) amts)) = 0.
  Proof.
    induction amts as [|a amts IH]; intros s H; cbn [length seq combine map sum_denom]; [reflexivity|].
    rewrite Hf, IH by lia. cbn [fst]. destruct (Nat.eqb_spec s d); [lia|reflexivity].
  Qed.

  Lemma sum_denom_enum amts : forall i s, (i < length amts)%nat ->
    sum_denom (s + i) (map f (combine (seq s (length amts)) amts)) = snd (f ((s + i)%nat, nth i amts 0)).
  Proof.
    induction amts as [|a amts IH]; intros i s H; cbn [length] in H; [lia|].
    cbn [length seq combine map sum_denom]. rewrite Hf. cbn [fst]. destruct i as [|i]; cbn [nth].
    - rewrite Nat.add_0_r, Nat.eqb_refl, sum_denom_below by lia. lia.
    - rewrite <- Nat.add_succ_comm, IH by lia. destruct (Nat.eqb_spec s (S s + i)); [lia|reflexivity].
  Qed.

  Lemma joined_enum_nth amts i : (i < length amts)%nat ->
    nth i (joined_of (length amts) (map f (enum amts))) 0 = snd (f (i, nth i amts 0)).
  Proof. intros H. unfold joined_of. rewrite nth_map_seq by exact H. apply (sum_denom_enum amts i 0 H). Qed.
End SumDenom.

Lemma zip_add_nth : forall R j i, length j = length R -> nth i (zip_add R j) 0 = nth i R 0 + nth i j 0.
Proof.
  induction R as [|r R IH]; intros [|x j] i H; cbn [length] in H; try discriminate.
  - destruct i; reflexivity.
  - destruct i; cbn [zip_add nth]; [reflexivity|]. apply IH. lia.
Qed.

Lemma zip_add_length : forall R j, length (zip_add R j) = length R.
Proof. induction R as [|r R IH]; intros [|x j]; cbn [zip_add length]; auto. Qed.

Lemma zip_exit_nth : forall R outs i, length outs = length R -> (i < length R)%nat ->
  nth i (zip_exit R outs) 0 = if nth i R 0 - nth i outs 0 =? 0 then nth i R 0 else nth i R 0 - nth i outs 0.
Proof.
  induction R as [|r R IH]; intros [|o outs] i H Hi; cbn [length] in *; try discriminate; try lia.
  destruct i; cbn [zip_exit nth]; [reflexivity|]. apply IH; lia.
Qed.

Lemma zip_exit_length : forall R outs, length (zip_exit R outs) = length R.
Proof. induction R as [|r R IH]; intros [|o outs]; cbn [zip_exit length]; auto. Qed.

Lemma existsb_combine_nth (f : Z * Z -> bool) : forall R outs i, length outs = length R -> (i < length R)%nat ->
  existsb f (combine R outs) = false -> f (nth i R 0, nth i outs 0) = false.
Proof.
  induction R as [|r R IH]; intros [|o outs] i Hl Hi H; cbn [length] in *; try lia.
  cbn [combine existsb] in H. apply Bool.orb_false_iff in H. destruct H as [H0 H].
  destruct i; cbn [nth]; [exact H0|]. apply IH; [lia|lia|exact H].
Qed.

(* CalcJoinPoolNoSwapShares *)

Lemma join_prefix_ok R S t r : join_coins_prefix R S t = Ok r ->
  forallb (fun c => (fst c <? length R)%nat) t = true /\ length t = length R /\ coins_sorted t = true /\
  let rs := map (ratio_of R) t in
  let j := joined_of (length R) (map (eff R (min_ratio rs) (max_ratio rs)) t) in
  r = (shares_of (min_ratio rs) S, j, zip_add R j, S + shares_of (min_ratio rs) S).
Proof.
  unfold join_coins_prefix. cbv zeta.
  destruct (forallb _ _); [|discriminate]. destruct (Nat.eqb_spec (length t) (length R)); [|discriminate].
  cbn [negb]. destruct (existsb _ _); [discriminate|]. destruct (_ =? MAXSORT); [discriminate|].
  destruct (coins_sorted t); [|discriminate]. cbn [negb].
  destruct (existsb _ _); [discriminate|]. destruct (any_gt _ _); [discriminate|].
  intros H. injection H as <-. auto.
Qed.

(* the repeated-denom check only refuses *)
Lemma join_coins_ok R S t r : join_coins R S t = Ok r -> has_dup t = false /\ join_coins_prefix R S t = Ok r.
Proof.
  unfold join_coins. intros H. destruct (has_dup t); [exfalso; rewrite andb_true_r in H|rewrite andb_false_r in H; auto].
  destruct (forallb _ _ && _) eqn:E; [discriminate|].
  apply join_prefix_ok in H. destruct H as (Hd & Hl & _). rewrite Hd, Hl, Nat.eqb_refl in E. discriminate.
Qed.

(* what every accepted all-asset join guarantees asset by asset: the minted shares are worth at most what was
   joined (no slack), at most the offer is taken, the book grows by exactly that, the reserve per share of those
   left behind does not fall *)
Definition fair_join (R : list Z) (S : Z) (offer : list Z) (sh : Z) (j R' : list Z) (S' : Z) : Prop :=
  length j = length R /\ S' = S + sh /\ 0 <= sh /\
  forall i, (i < length R)%nat ->
    sh * nth i R 0 <= nth i j 0 * S /\ 0 <= nth i j 0 <= nth i offer 0 /\
    nth i R' 0 = nth i R 0 + nth i j 0 /\
    nth i R 0 * S' <= nth i R' 0 * S.

Lemma eff_bound R minr maxr c : 0 < rsv R (fst c) -> 0 <= snd c -> 0 <= minr <= ratio_of R c ->
  0 <= snd (eff R minr maxr c) <= snd c /\ minr * rsv R (fst c) <= snd (eff R minr maxr c) * PREC.
Proof.
  intros Hr Ha Hm. destruct (ratio_bound (snd c) _ Ha Hr) as [_ Q]. fold (ratio_of R c) in Q.
  assert (Hc : minr * rsv R (fst c) <= snd c * PREC).
  { etransitivity; [|exact Q]. apply Z.mul_le_mono_nonneg_r; lia. }
  unfold eff. destruct (minr =? maxr); [lia|]. destruct (ratio_of R c =? minr); [lia|]. cbn [snd].
  assert (H : 0 <= minr * rsv R (fst c)) by (apply Z.mul_nonneg_nonneg; lia).
  pose proof (dceil_trunc _ H). pose proof (dceil_trunc_least _ (snd c) H Hc). pose proof PREC_pos.
  unfold used_amt, dmul_int. nia.
Qed.

Lemma eff_fst R minr maxr c : fst (eff R minr maxr c) = fst c.
Proof. unfold eff. destruct (minr =? maxr); [reflexivity|]. destruct (ratio_of R c =? minr); reflexivity. Qed.

(* well-formed tokens: one coin per pool asset *)
Lemma join_enum_spec R S amts sh j R' S' :
  Forall (fun r => 0 < r) R -> 0 <= S -> Forall (fun a => 0 <= a) amts ->
  join_coins R S (enum amts) = Ok (sh, j, R', S') ->
  fair_join R S amts sh j R' S' /\ length R' = length R.
Proof.
  intros HR HS Ha H. apply join_coins_ok in H. destruct H as [_ H].
  apply join_prefix_ok in H. destruct H as (_ & El & _ & E). cbv zeta in E. rewrite enum_length in El.
  set (rs := map (ratio_of R) (enum amts)) in E. set (minr := min_ratio rs) in E.
  injection E as -> -> -> ->. unfold fair_join. rewrite <- El.
  assert (Hrs : forall i, (i < length amts)%nat ->
            0 < nth i R 0 /\ 0 <= nth i amts 0 /\ 0 <= ratio_of R (i, nth i amts 0) /\ minr <= ratio_of R (i, nth i amts 0)).
  { intros i Hi. assert (Hr : 0 < nth i R 0) by (apply pos_nth; [exact HR|lia]).
    assert (Hai : 0 <= nth i amts 0) by (apply (proj1 (Forall_nth _ amts) Ha); exact Hi).
    split; [exact Hr|]. split; [exact Hai|]. split; [apply (ratio_bound _ _ Hai Hr)|].
    apply (proj2 (fold_min_le rs MAXSORT)), in_map, enum_in, Hi. }
  assert (Hmin0 : 0 <= minr).
  { apply fold_min_ge; [discriminate|].
    intros r Hr. unfold rs in Hr. apply in_map_iff in Hr. destruct Hr as [c [<- Hin]].
    destruct (In_nth _ _ (0%nat, 0) Hin) as [i [Hi <-]]. rewrite enum_length in Hi.
    rewrite enum_nth by exact Hi. apply (Hrs i Hi). }
  destruct (trunc_int_bounds (minr * S)) as (Hs0 & _ & Hs1); [apply Z.mul_nonneg_nonneg; assumption|].
  change (trunc_int (minr * S)) with (shares_of minr S) in *. set (j := joined_of _ _).
  assert (Lj : length j = length amts) by (unfold j, joined_of; rewrite map_length, seq_length; reflexivity).
  split; [|rewrite zip_add_length; symmetry; exact El].
  split; [exact Lj|]. split; [reflexivity|]. split; [exact Hs0|]. intros i Hi.
  rewrite zip_add_nth by (rewrite Lj; exact El). unfold j.
  rewrite (joined_enum_nth (eff R minr (max_ratio rs)) (eff_fst R minr _)) by exact Hi.
  destruct (Hrs i Hi) as (Hr & Hai & Hq0 & Hq1).
  destruct (eff_bound R minr (max_ratio rs) (i, nth i amts 0) Hr Hai (conj Hmin0 Hq1)) as [X U]. cbn [fst snd] in X, U.
  set (x := snd (eff _ _ _ _)) in *. unfold rsv in U.
  assert (shares_of minr S * nth i R 0 <= x * S) by (apply (cross_le PREC minr); lia || reflexivity).
  repeat split; lia.
Qed.

Lemma sorted_nodup_seq : forall (t : list coin) s,
  coins_sorted t = true -> has_dup t = false ->
  (s <= fst (hd (s, 0%Z) t))%nat ->
  forallb (fun c => (fst c <? s + length t)%nat) t = true ->
  map fst t = seq s (length t).
Proof.
  induction t as [|c t IH]; intros s Hs Hd Hlo Hhi; [reflexivity|].
  cbn [hd forallb length] in Hlo, Hhi. apply andb_true_iff in Hhi. destruct Hhi as [Hc Hhi]. apply Nat.ltb_lt in Hc.
  rewrite <- Nat.add_succ_comm in Hhi. cbn [map length seq]. destruct t as [|c2 t].
  - cbn [length] in Hc. cbn. f_equal. lia.
  - cbn [coins_sorted] in Hs. apply andb_true_iff in Hs. destruct Hs as [Hle Hs]. apply Nat.leb_le in Hle.
    cbn [has_dup existsb] in Hd. apply orb_false_iff in Hd. destruct Hd as [Hne Hd].
    apply orb_false_iff in Hne. destruct Hne as [Hne _]. apply Nat.eqb_neq in Hne.
    specialize (IH (S s) Hs Hd ltac:(cbn [hd]; lia) Hhi). rewrite IH.
    cbn [map length seq] in IH. injection IH as E _. f_equal. lia.
Qed.

Lemma combine_map_fst_snd (t : list coin) : combine (map fst t) (map snd t) = t.
Proof. induction t as [|[a b] t IH]; cbn; [reflexivity|]. rewrite IH. reflexivity. Qed.

(* ANY user-supplied token list (unsorted, repeated denoms, zero amounts: whatever passes the per-coin
   validation of MsgJoinPool) that CalcJoinPoolNoSwapShares accepts is a well-formed coin set with one
   coin per pool asset in pool order, so the guarantees of the well-formed case hold for all of them. *)
Lemma join_accepts_only_coin_sets R S t r : join_coins R S t = Ok r -> t = enum (map snd t).
Proof.
  intros H. apply join_coins_ok in H. destruct H as [Eh H].
  apply join_prefix_ok in H. destruct H as (Ed & El & Es & _).
  unfold enum. rewrite map_length.
  transitivity (combine (map fst t) (map snd t)); [symmetry; apply combine_map_fst_snd|f_equal].
  apply (sorted_nodup_seq t 0 Es Eh); [apply Nat.le_0_l|]. rewrite El. exact Ed.
Qed.

(* GetMaximalNoSwapLPAmount *)

Lemma maximal_lp_nonneg R S so needed : maximal_lp R S so = Ok needed -> Forall (fun a => 0 <= a) needed.
Proof.
  unfold maximal_lp. intros H.
  destruct (S =? 0); [discriminate|]. destruct (_ <=? 0); [discriminate|].
  destruct (existsb _ _) eqn:E; [discriminate|]. injection H as <-.
  apply Forall_forall. intros x Hx. destruct (x <=? 0) eqn:Ex; [exfalso|apply Z.leb_gt in Ex; lia].
  apply not_true_iff_false in E. apply E, existsb_exists. exists x. split; assumption.
Qed.

Lemma join_shares_spec R S so needed sh j R' S' :
  Forall (fun r => 0 < r) R -> 0 <= S ->
  join_shares R S so = Ok (needed, (sh, j, R', S')) ->
  fair_join R S needed sh j R' S' /\ length R' = length R.
Proof.
  intros HR HS H. unfold join_shares in H.
  apply bind_ok in H. destruct H as (nd & Em & H). apply bind_ok in H. destruct H as (r & Ej & H).
  injection H as -> ->. apply maximal_lp_nonneg in Em. exact (join_enum_spec _ _ _ _ _ _ _ HR HS Em Ej).
Qed.

(* processExitPool as it is (after fix: 1c2976e) *)
Lemma apply_exit_spec R outs R' : length outs = length R ->
  apply_exit R outs = Ok R' ->
  length R' = length R /\ forall i, (i < length R)%nat -> nth i R' 0 = nth i R 0 - nth i outs 0 /\ 1 <= nth i R' 0.
Proof.
  intros Hl H. unfold apply_exit in H.
  destruct (existsb (fun ro => fst ro - snd ro <? 0) _) eqn:En; [discriminate|].
  destruct (existsb (fun ro => fst ro - snd ro =? 0) _) eqn:Ez; [discriminate|].
  injection H as <-. split; [apply zip_exit_length|]. intros i Hi.
  pose proof (existsb_combine_nth _ R outs i Hl Hi En) as A. pose proof (existsb_combine_nth _ R outs i Hl Hi Ez) as B.
  cbn [fst snd] in A, B. apply Z.ltb_ge in A. rewrite zip_exit_nth, B by assumption. apply Z.eqb_neq in B. lia.
Qed.

Lemma apply_exit_ge_one R outs R' : length outs = length R -> apply_exit R outs = Ok R' -> Forall (fun r => 1 <= r) R'.
Proof.
  intros Hl H. destruct (apply_exit_spec R outs R' Hl H) as [Lr Hi]. apply Forall_nth0. rewrite Lr. intros i Hi'. apply Hi, Hi'.
Qed.

Lemma exit_prorata_ok R S sh outs R' S' : exit_prorata R S sh = Ok (outs, R', S') ->
  sh < S /\ S' = S - sh /\ outs = map (exit_amt (Z.quot (sh * PREC) S)) R /\ apply_exit R outs = Ok R'.
Proof.
  unfold exit_prorata. cbv zeta. intros H.
  destruct (Z.leb_spec S sh); [discriminate|]. destruct (S =? 0); [discriminate|]. destruct (existsb _ _); [discriminate|].
  apply bind_ok in H. destruct H as (R0 & Ea & H). injection H as <- <- <-. auto.
Qed.

Lemma exit_never_empties R S sh outs R' S' : exit_prorata R S sh = Ok (outs, R', S') ->
  1 <= S' /\ length R' = length R /\ Forall (fun r => 1 <= r) R'.
Proof.
  intros H. apply exit_prorata_ok in H. destruct H as (Hlt & -> & -> & Ea).
  split; [lia|]. split; [apply (apply_exit_spec _ _ _ (map_length _ _) Ea)|apply (apply_exit_ge_one _ _ _ (map_length _ _) Ea)].
Qed.

Lemma exit_spec R S sh outs R' S' :
  Forall (fun r => 0 < r) R -> 0 <= sh ->
  exit_prorata R S sh = Ok (outs, R', S') ->
  sh < S /\ S' = S - sh /\ length R' = length R /\
  forall i, (i < length R)%nat ->
    0 <= nth i outs 0 /\ nth i outs 0 * S <= sh * nth i R 0 /\
    nth i R' 0 = nth i R 0 - nth i outs 0 /\ 1 <= nth i R' 0.
Proof.
  intros HR Hsh H. apply exit_prorata_ok in H. destruct H as (E1 & -> & -> & Ea).
  apply apply_exit_spec in Ea; [|apply map_length]. destruct Ea as [Lr Hi].
  split; [exact E1|]. split; [reflexivity|]. split; [exact Lr|]. intros i Hl.
  destruct (Hi i Hl) as [A B]. rewrite nth_map_Z in A |- * by exact Hl.
  pose proof (pos_nth R i HR Hl) as Hr.
  destruct (ratio_bound sh S Hsh ltac:(lia)) as [Q0 Q1].
  destruct (exit_amt_bound _ (nth i R 0) Q0 ltac:(lia)) as [O0 O1].
  split; [exact O0|]. split; [|split; assumption].
  apply (cross_le PREC (Z.quot (sh * PREC) S)); lia || reflexivity.
Qed.

Lemma keeper_exit_spec R S sh r : keeper_exit R S sh = Ok r -> 0 < sh /\ exit_prorata R S sh = Ok r.
Proof.
  unfold keeper_exit. destruct (S <=? sh); [discriminate|]. destruct (Z.leb_spec sh 0); [discriminate|]. auto.
Qed.

Lemma apply_exit_point R k out R' : apply_exit R (upd_nth k out (map (fun _ => 0) R)) = Ok R' ->
  length R' = length R /\ Forall (fun r => 1 <= r) R' /\
  ((k < length R)%nat -> nth k R' 0 = nth k R 0 - out) /\
  (forall i, (i < length R)%nat -> i <> k -> nth i R' 0 = nth i R 0).
Proof.
  intros H. assert (Lo : length (upd_nth k out (map (fun _ => 0) R)) = length R) by (rewrite length_upd_nth; apply map_length).
  destruct (apply_exit_spec _ _ _ Lo H) as [Lr Hi].
  split; [exact Lr|]. split; [exact (apply_exit_ge_one _ _ _ Lo H)|split].
  - intros Hk. rewrite (proj1 (Hi k Hk)), nth_upd_nth_same by (rewrite map_length; exact Hk). reflexivity.
  - intros i Hl Hne. rewrite (proj1 (Hi i Hl)), nth_upd_nth_other, (nth_map_Z (fun _ => 0)) by auto. lia.
Qed.

Lemma exit_oracle_ok fx R S sh k acc prices weights wbf out R' S' :
  exit_oracle_gen fx R S sh k acc prices weights wbf = Ok (out, R', S') ->
  sh < S /\ S' = S - sh /\
  (if fx then apply_exit else apply_exit_prefix) R (upd_nth k out (map (fun _ => 0) R)) = Ok R'.
Proof.
  intros H. unfold exit_oracle_gen in H.
  destruct (Z.leb_spec S sh) as [|E1]; [discriminate|]. destruct (S =? 0); [discriminate|].
  apply bind_ok in H. destruct H as (T & _ & H). cbv beta zeta in H.
  destruct (oracle_exit_out T S sh (nth k prices 0) wbf) as [pre o]. destruct (_ <? 0); [discriminate|].
  apply bind_ok in H. destruct H as (R0 & Ea & H). injection H as -> -> <-. auto.
Qed.

(* value per share for those left behind, along histories *)

Definition pos_state (s : pstate) : Prop := Forall (fun r => 0 < r) (fst s) /\ 0 < snd s.

Definition vps_le (s s' : pstate) : Prop :=
  length (fst s') = length (fst s) /\
  forall i, (i < length (fst s))%nat -> nth i (fst s) 0 * snd s' <= nth i (fst s') 0 * snd s.

(* the relation every operation maintains; transitive only along positive states, hence one notion *)
Definition keeps (s s' : pstate) : Prop := pos_state s -> pos_state s' /\ vps_le s s'.

Lemma keeps_refl s : keeps s s.
Proof. intros H. split; [exact H|]. split; [reflexivity|]. intros; lia. Qed.

Lemma keeps_trans s1 s2 s3 : keeps s1 s2 -> keeps s2 s3 -> keeps s1 s3.
Proof.
  intros K12 K23 P1. destruct (K12 P1) as [P2 [L12 V12]]. destruct (K23 P2) as [P3 [L23 V23]].
  split; [exact P3|]. split; [congruence|]. intros i Hi.
  apply (cross_le (snd s2) (nth i (fst s2) 0)); [apply P2|apply Z.lt_le_incl, P1|apply Z.lt_le_incl, P3| |].
  - apply V12, Hi.
  - apply V23. rewrite L12. exact Hi.
Qed.

Lemma fair_join_pos R S offer sh j R' S' : Forall (fun r => 0 < r) R ->
  fair_join R S offer sh j R' S' -> length R' = length R -> Forall (fun r => 0 < r) R'.
Proof.
  intros HR (_ & _ & _ & Hi) Lr. apply Forall_nth0. rewrite Lr. intros i Hl.
  destruct (Hi i Hl) as (_ & J & -> & _). pose proof (pos_nth R i HR Hl). lia.
Qed.

Lemma fair_join_keeps R S offer sh j R' S' :
  fair_join R S offer sh j R' S' -> length R' = length R -> keeps (R, S) (R', S').
Proof.
  intros F Lr [HR HS]. cbn [fst snd] in *. split; [split|split]; cbn [fst snd].
  - apply (fair_join_pos _ _ _ _ _ _ _ HR F Lr).
  - destruct F as (_ & -> & Hsh & _). lia.
  - exact Lr.
  - intros i Hl. destruct F as (_ & _ & _ & Hi). apply (Hi i Hl).
Qed.

Lemma keeper_exit_keeps R S sh outs R' S' : keeper_exit R S sh = Ok (outs, R', S') -> keeps (R, S) (R', S').
Proof.
  intros H [HR _]. cbn [fst snd] in *. apply keeper_exit_spec in H. destruct H as [Hsh H].
  apply exit_spec in H; [|exact HR|lia]. destruct H as (Hlt & -> & Lr & Hi).
  split; [split|split]; cbn [fst snd].
  - apply Forall_nth0. rewrite Lr. intros i Hl. destruct (Hi i Hl) as (_ & _ & _ & D). lia.
  - lia.
  - exact Lr.
  - intros i Hl. destruct (Hi i Hl) as (_ & B & -> & _). lia.
Qed.

Lemma step_keeps s o s' : step s o = Ok s' -> keeps s s'.
Proof.
  destruct s as [R S]. intros H. assert (HS : pos_state (R, S) -> 0 <= S) by (intros [_ HS]; cbn in HS; lia).
  destruct o as [amts|so|sh]; cbn [step fst snd] in H.
  - destruct (forallb _ amts) eqn:Ef; [|discriminate]. cbn [negb] in H.
    apply bind_ok in H. destruct H as ([[[sh j] R'] S'] & Ej & H). injection H as <-. intros P.
    apply join_enum_spec in Ej; [|apply P|apply HS, P|].
    + destruct Ej as (F & Lr). apply (fair_join_keeps _ _ _ _ _ _ _ F Lr P).
    + apply Forall_forall. intros x Hx. apply Z.leb_le. apply (proj1 (forallb_forall _ _) Ef x Hx).
  - apply bind_ok in H. destruct H as ([nd [[[sh j] R'] S']] & Ej & H). injection H as <-. intros P.
    apply join_shares_spec in Ej; [|apply P|apply HS, P]. destruct Ej as [F Lr].
    apply (fair_join_keeps _ _ _ _ _ _ _ F Lr P).
  - apply bind_ok in H. destruct H as ([[outs R'] S'] & Ee & H). injection H as <-.
    apply (keeper_exit_keeps _ _ _ _ _ _ Ee).
Qed.

(* every history, failed transactions included *)
Lemma run_keeps ops s : keeps s (run s ops).
Proof.
  apply (execs_rel keeps (fun _ => True) keeps_refl keeps_trans step); [|apply Forall_all; trivial].
  intros s0 o s' _. apply step_keeps.
Qed.

Lemma fair_join_then_exit R S offer sh j R' S' t outs R'' S'' :
  Forall (fun r => 0 < r) R -> 0 <= S -> fair_join R S offer sh j R' S' -> length R' = length R ->
  0 <= t <= sh -> exit_prorata R' S' t = Ok (outs, R'', S'') ->
  forall i, (i < length R)%nat -> nth i outs 0 <= nth i j 0 <= nth i offer 0.
Proof.
  intros HR HS F Lr Ht He i Hi. pose proof (fair_join_pos _ _ _ _ _ _ _ HR F Lr) as HR'.
  destruct F as (_ & -> & _ & Hj). destruct (Hj i Hi) as (J1 & J2 & J3 & _). split; [|apply J2].
  apply exit_spec in He; [|exact HR'|lia]. destruct He as (Hlt & _ & _ & Ho).
  rewrite Lr in Ho. destruct (Ho i Hi) as (_ & B & _). rewrite J3 in B. pose proof (pos_nth R i HR Hi).
  set (o := nth i outs 0) in *. set (x := nth i j 0) in *. set (r := nth i R 0) in *.
  (* o*(S+sh) <= t*(r+x) <= sh*(r+x) = sh*r + sh*x <= x*S + sh*x = x*(S+sh) *)
  assert (E1 : t * (r + x) <= sh * (r + x)) by (apply Z.mul_le_mono_nonneg_r; lia).
  assert (E2 : o * (S + sh) <= x * (S + sh)) by lia.
  apply Z.mul_le_mono_pos_r in E2; lia.
Qed.

Lemma round_after_fee x wbf : 0 <= x -> 0 <= wbf <= PREC ->
  0 <= round_int (dmul x (PREC - wbf)) <= round_int x /\ round_int (dmul x (PREC - wbf)) * PREC <= x + HALF.
Proof.
  intros Hx Hw. destruct (dmul_le_l x (PREC - wbf) Hx ltac:(lia)) as [C0 C1].
  destruct (chop_round_bounds _ C0) as [[_ B] B0]. unfold round_int.
  split; [split; [exact B0|apply chop_round_mono; lia]|lia].
Qed.

(* shares minted by a single-sided oracle join are worth (at the pool's own TVL) at most the joined
   value plus one share unit *)
Lemma oracle_join_value S jv T wbf :
  0 <= S -> 0 <= jv -> 0 < T -> 0 <= wbf <= PREC ->
  0 <= oracle_join_shares S jv T wbf /\ oracle_join_shares S jv T wbf * T <= S * jv + T.
Proof.
  intros HS Hjv HT Hw. unfold oracle_join_shares, dec_of_int. rewrite dmul_int_l.
  destruct (dquo_half (S * jv) T) as (B0 & B); [apply Z.mul_nonneg_nonneg; assumption|exact HT|].
  destruct (round_after_fee _ wbf B0 Hw) as [[R0 _] R1]. split; [exact R0|].
  set (b := dquo _ _) in *. set (s := round_int _) in *.
  (* s <= b + 1/2 and b * T <= S * jv + T/2, in units of 10^-18 *)
  assert (E : s * PREC * T <= (b + HALF) * T) by (apply Z.mul_le_mono_nonneg_r; lia).
  unfold PREC, HALF in *. lia.
Qed.

(* the amount paid by a single-sided oracle exit is worth at most the pro-rata share of the TVL plus
   one base unit of the asset (and 10^-18 of value); the fee only reduces it *)
Lemma oracle_exit_value T S sh p wbf :
  0 <= T -> 0 < S -> 0 <= sh -> 0 < p -> 0 <= wbf <= PREC ->
  let '(pre, out) := oracle_exit_out T S sh p wbf in
  0 <= out <= pre /\ out * p * S <= T * sh + S * (p + 1).
Proof.
  intros HT HS Hsh Hp Hw. pose proof PREC_pos as HP.
  unfold oracle_exit_out, dec_of_int. cbv zeta. rewrite dmul_int_r.
  destruct (dquo_half (sh * T) (S * PREC)) as (V0 & V);
    [apply Z.mul_nonneg_nonneg; assumption|apply Z.mul_pos_pos; assumption|].
  set (ev := dquo (sh * T) (S * PREC)) in *.
  destruct (dquo_half ev p V0 Hp) as (O0 & O). set (oo := dquo ev p) in *.
  destruct (round_after_fee oo wbf O0 Hw) as [R0 R1]. split; [exact R0|].
  set (out := round_int (dmul _ _)) in *.
  (* three roundings, each by at most half a unit: out <= oo + 1/2, oo * p <= ev + p/2, ev * S <= sh * T / 10^18 + S/2 *)
  assert (HpS : 0 <= p * S) by (apply Z.mul_nonneg_nonneg; lia).
  assert (F1 : out * PREC * (p * S) <= (oo + HALF) * (p * S)) by (apply Z.mul_le_mono_nonneg_r; assumption).
  assert (F2 : 2 * (oo * p) * S <= (2 * (ev * PREC) + p) * S) by (apply Z.mul_le_mono_nonneg_r; lia).
  unfold PREC, HALF in *. lia.
Qed.

(* The value pw of Pow(y, w) is a hypothesis here (Proofs/PowJoin.v proves it in range for the cases it covers).
   If it does not exceed its base (true for any sound approximation of y^w with y >= 1, 0 < w <= 1), the
   minted shares never exceed the deposited asset's pro-rata measure: shares * B * 10^18 <= S * (a * 10^18 + B). *)
Lemma single_join_le_deposit B w tw a fee S pw :
  0 < B -> 0 <= a -> 0 <= S -> 0 <= fee <= PREC -> 0 <= w <= tw -> 0 < tw ->
  PREC <= pw <= single_join_y B w tw a fee ->
  0 <= single_join_shares S pw /\
  single_join_shares S pw * B * PREC <= S * (a * PREC + B).
Proof.
  intros HB Ha HS Hfee Hw Htw Hpw. pose proof PREC_pos as HP.
  unfold single_join_y, single_join_shares, dec_of_int in *. cbv zeta in Hpw.
  (* the fee ratio lies in [0, 1], so the amount after fee (an exact product) is at most a *)
  assert (Hwn : 0 <= single_join_wn w tw <= PREC) by (apply dquo_le_one; unfold dec_of_int; nia).
  pose proof (dmul_le_l (PREC - single_join_wn w tw) fee ltac:(lia) Hfee) as Hfr.
  rewrite dmul_int_l in Hpw. set (af := a * (PREC - _)) in Hpw.
  assert (Haf : 0 <= af <= a * PREC) by (unfold af; nia).
  destruct (dquo_half (B * PREC + af) (B * PREC)) as (_ & Hy); [nia..|].
  set (y := dquo _ _) in *.
  (* shares = floor (S * (pw - 1)), again an exact product *)
  rewrite dmul_int_l. replace (- (S * (PREC - pw))) with (S * (pw - PREC)) by ring.
  destruct (trunc_int_bounds (S * (pw - PREC))) as (Ht0 & _ & Ht); [nia|].
  split; [exact Ht0|]. set (t := trunc_int _) in *.
  assert (E1 : 2 * ((y - PREC) * B) <= 2 * (a * PREC) + B) by (unfold PREC in *; lia).
  assert (E2 : t * PREC <= S * (y - PREC)) by nia.
  clear - E1 E2 HB HS HP. nia.
Qed.

(* the witnesses of the two refuted claims, replayed on the real code *)

(* MsgJoinPool.MaxAmountsIn is validated coin by coin only; on an oracle pool it reaches JoinPool as
   tokensIn. [uusdc:50e6; uusdc:100e6] passes every check of CalcJoinPoolNoSwapShares (Coins.Sub coalesces
   the duplicates, IsAnyGT looks the denom up by binary search and finds the larger coin): 100 USDC are
   charged, shares for 0.125 % of a pool holding 40e9 uusdc + 12e9 uatom are minted, no uatom is paid. *)
Definition dup_R : list Z := [12000000000; 40000000000].
Definition dup_S : Z := 100000000000000000000000.
Definition dup_tokens : list coin := [(1%nat, 50000000); (1%nat, 100000000)].

(* Single-sided exit of an oracle pool for shares worth exactly the whole reserve of the asset taken
   out: the final weight of that asset is 0, GetWeightBreakingFee then charges nothing, the amount paid
   equals the reserve, Coins.Sub drops the zero balance and the pool keeps booking the old reserve. *)
Definition drain_R : list Z := [20000000000; 100000000000].
Definition drain_S : Z := 200000000000000000000000.
