(* C01: the ledger invariant of Models/AmmLedger.v, what keeps it, and the swap handler as coded (level B). *)
From Coq Require Import ZArith List Bool Lia.
From Elys Require Import Base.Res Base.ResFacts Base.Fn Models.AmmLedger.
Import ListNotations.
Open Scope Z_scope.

(* the one form every change to the ledger has *)
Definition moves (s s' : amm) (p d : nat) (r b g : Z) : Prop :=
  (forall q e, reserve s' q e = reserve s q e + (if Nat.eqb q p && Nat.eqb e d then r else 0) /\
               pbank s' q e = pbank s q e + (if Nat.eqb q p && Nat.eqb e d then b else 0) /\
               donated s' q e = donated s q e + (if Nat.eqb q p && Nat.eqb e d then g else 0)) /\
  (forall e, liq s' e = liq s e + if Nat.eqb e d then r else 0).

(* the half of the invariant that needs no list of pools: a pool address holds the book reserve plus what third
   parties sent it *)
Definition Booked (s : amm) : Prop :=
  forall p d, pbank s p d = reserve s p d + donated s p d /\ 0 <= donated s p d.

Lemma Booked_move s s' p d r b g : Booked s -> 0 <= g -> b = r + g -> moves s s' p d r b g -> Booked s'.
Proof.
  intros Hb Hg -> [Hm _] q e. destruct (Hm q e) as (-> & -> & ->). destruct (Hb q e). destruct (_ && _); lia.
Qed.

Section WithPools.
Variable ps : list nat.            (* the pools that exist *)
Hypothesis ps_nodup : NoDup ps.

Definition Inv (s : amm) : Prop :=
  (forall p d, pbank s p d = reserve s p d + donated s p d /\ 0 <= donated s p d) /\
  (forall d, liq s d = sumf (fun p => reserve s p d) ps).

Definition pool_of (o : aop) : nat := match o with AIn p _ _ | AOut p _ _ | ADonate p _ _ => p end.

Lemma Inv_move s s' p d r b g : Inv s -> In p ps -> 0 <= g -> b = r + g -> moves s s' p d r b g -> Inv s'.
Proof.
  intros [Hb Hl] Hin Hg E Hm. split; [exact (Booked_move s s' p d r b g Hb Hg E Hm)|]. destruct Hm as [Hm Hq].
  intros e. rewrite Hq, Hl. symmetry. apply (sumf_point _ _ p); auto.
  intros q. destruct (Hm q e) as (-> & _). destruct (Nat.eqb q p), (Nat.eqb e d); reflexivity.
Qed.

(* Level B: while the handler runs, its in-memory array is the stored reserve row of pool [p] *)
Definition coh (p : nat) (h : hstate) : Prop := forall d, mem h d = reserve (st h) p d.
Definition HInv (p : nat) (h : hstate) : Prop := Inv (st h) /\ coh p h.

(* both legs leave the array, the store and the bank moved by the same signed amount at (p, d) *)
Lemma hmove_inv p h d r : HInv p h -> In p ps ->
  let m := upd (mem h) d (mem h d + r) in
  HInv p (mkH (mkAmm (fun x y => if Nat.eqb x p then m y else reserve (st h) x y)
                     (upd2 (pbank (st h)) p d (pbank (st h) p d + r))
                     (upd (liq (st h)) d (liq (st h) d + r)) (donated (st h))) m).
Proof.
  intros [HI Hc] Hin m. split; [|intros e; cbn; rewrite Nat.eqb_refl; reflexivity].
  apply (Inv_move (st h) _ p d r r 0 HI Hin); [lia|lia|]. split; cbn.
  - intros q e. unfold m. rewrite upd_add, upd2_add, Hc.
    destruct (Nat.eqb_spec q p) as [->|]; cbn; [destruct (Nat.eqb e d)|]; lia.
  - intros e. apply upd_add.
Qed.

Lemma h_in_inv p h d a h1 h2 : HInv p h -> In p ps ->
  h_bank_in h p d a = Ok h1 -> h_add h1 p d a = Ok h2 -> HInv p h2.
Proof. intros HI Hin E1 E2. cbn in E1. injection E1 as <-. injection E2 as <-. exact (hmove_inv p h d a HI Hin). Qed.

Lemma h_out_inv p h d a h1 h2 : HInv p h -> In p ps ->
  h_bank_out h p d a = Ok h1 -> h_remove h1 p d a = Ok h2 -> HInv p h2.
Proof.
  intros HI Hin E1 E2. unfold h_bank_out, bank_out in E1. destruct (pbank (st h) p d <? a); [discriminate|].
  cbn in E1. injection E1 as <-. unfold h_remove in E2. cbn in E2.
  destruct (mem h d - a <? 0); [discriminate|]. destruct (liq (st h) d <? a); [discriminate|].
  injection E2 as <-. exact (hmove_inv p h d (- a) HI Hin).
Qed.

Lemma nested_inv p h din n h' : HInv p h -> In p ps -> nested_swap true h p din n = Ok h' -> HInv p h'.
Proof.
  intros HI Hin H. unfold nested_swap in H. destruct (n_fail n).
  - apply bind_ok in H as (h1 & E1 & H). apply bind_ok in H as (h2 & E2 & H). apply bind_ok in H as (h3 & E3 & H).
    exact (h_out_inv p h2 _ _ h3 h' (h_in_inv p h _ _ h1 h2 HI Hin E1 E2) Hin E3 H).
  - injection H as <-. exact HI.
Qed.

(* restore = true: the handler as coded after the fix; amounts of either sign, every nested outcome and failure point *)
Theorem swap_handler_inv s p din dout ain aout fee wb conv s' :
  Inv s -> In p ps -> swap_handler true s p din dout ain aout fee wb conv = Ok s' -> Inv s'.
Proof.
  intros HI Hin H. unfold swap_handler in H.
  assert (H0 : HInv p (mkH s (reserve s p))) by (split; [exact HI|intros d; reflexivity]).
  apply bind_ok in H as (h1 & E1 & H). apply bind_ok in H as (h2 & E2 & H).
  pose proof (h_in_inv p _ _ _ h1 h2 H0 Hin E1 E2) as H2.
  apply bind_ok in H as (h3 & E3 & H). apply bind_ok in H as (h4 & E4 & H).
  pose proof (h_out_inv p _ _ _ h3 h4 H2 Hin E3 E4) as H4.
  apply bind_ok in H as (h5 & E5 & H).
  assert (H5 : HInv p h5).
  { destruct (0 <? fee); [|injection E5 as <-; exact H4].
    apply bind_ok in E5 as (a & Ea & E5). apply bind_ok in E5 as (b & Eb & E5).
    pose proof (h_out_inv p _ _ _ a b H4 Hin Ea Eb) as Hb.
    destruct conv as [n|]; [exact (nested_inv p b din n h5 Hb Hin E5)|injection E5 as <-; exact Hb]. }
  apply bind_ok in H as (h6 & E6 & H).
  assert (H6 : HInv p h6).
  { destruct (0 <? wb); [|injection E6 as <-; exact H5].
    apply bind_ok in E6 as (a & Ea & E6). exact (h_out_inv p _ _ _ a h6 H5 Hin Ea E6). }
  (* the final SetPool stores an array that agrees with the store already *)
  injection H as <-. destruct H6 as [[Hb Hl] Hco]. split; cbn.
  - intros q e. specialize (Hb q e). destruct (Nat.eqb_spec q p) as [->|Nq]; [rewrite Hco|]; exact Hb.
  - intros e. rewrite Hl. apply sumf_ext. intros q _.
    destruct (Nat.eqb_spec q p) as [->|Nq]; [rewrite Hco|]; reflexivity.
Qed.

End WithPools.

(* one pool holding 100000 of denom 0 and 20000 of denom 1, books and bank level: the state on which the handler
   without the restore (restore = false: the code before the fix) is run in C01_prefix_shared_array_refuted; a nested
   conversion rejected by the AfterSwap hooks leaves its array writes behind and the outer SetPool stores them *)
Definition refute_s0 : amm :=
  mkAmm (fun p d => if Nat.eqb p 0 then (if Nat.eqb d 0 then 100000 else if Nat.eqb d 1 then 20000 else 0) else 0)
        (fun p d => if Nat.eqb p 0 then (if Nat.eqb d 0 then 100000 else if Nat.eqb d 1 then 20000 else 0) else 0)
        (fun d => if Nat.eqb d 0 then 100000 else if Nat.eqb d 1 then 20000 else 0)
        (fun _ _ => 0).
