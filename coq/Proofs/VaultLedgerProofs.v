From Coq Require Import ZArith List Bool Lia.
From Elys Require Import Base.Res Base.ResFacts Base.Fn Models.SumLedger Proofs.SumLedgerProofs Models.Stable Proofs.StableProofs
  Models.VaultLedger.
Import ListNotations.
Open Scope Z_scope.

Definition VWf (v : vault) : Prop :=
  NoDup (v_keys v) /\
  (forall k, ~ In k (v_keys v) -> v_b v k = 0 /\ v_s v k = 0 /\ v_p v k = 0) /\
  (forall k, 0 <= v_b v k /\ 0 <= v_p v k <= v_s v k) /\
  (forall k, v_b v k = 0 -> v_s v k = v_p v k).

(* the C06 equation with the ghost, plus well-formedness *)
Definition VInv (v : vault) : Prop :=
  v_tv v + v_don v = v_cash v + loans v /\ VWf v /\ 0 <= v_don v.

Lemma vault_empty_inv : VInv vault_empty.
Proof.
  unfold VInv, VWf, vault_empty, loans; cbn. split; [reflexivity|]. split; [|lia].
  split; [constructor|]. split; [intros; auto|]. split; [intros; lia|intros; reflexivity].
Qed.

Lemma liab_put v tv cash k b s p x : liab (put v tv cash k b s p) x = upd (liab v) k (b + s - p) x.
Proof. unfold liab, put, upd; cbn. destruct (Nat.eqb x k); reflexivity. Qed.

Lemma liab_del v tv cash k x : liab (del v tv cash k) x = upd (liab v) k 0 x.
Proof. unfold liab, del, upd; cbn. destruct (Nat.eqb x k); reflexivity. Qed.

Lemma liab_absent v k : VWf v -> ~ In k (v_keys v) -> liab v k = 0.
Proof. intros (_ & HZ & _) H. destruct (HZ k H) as (A & B & C). unfold liab. lia. Qed.

Lemma loans_put v tv cash k b s p : VWf v ->
  loans (put v tv cash k b s p) = loans v - liab v k + (b + s - p).
Proof.
  intros HW. pose proof HW as (ND & _). unfold loans.
  rewrite (sumf_ext _ (upd (liab v) k (b + s - p))) by (intros; apply liab_put).
  unfold put; cbn [v_keys]. destruct (mem_key k (v_keys v)) eqn:M.
  - apply mem_key_In in M. rewrite sumf_upd_in by assumption. lia.
  - assert (Hn : ~ In k (v_keys v)) by (intros Hin; apply mem_key_In in Hin; congruence).
    cbn [sumf]. rewrite upd_same, sumf_upd_notin by exact Hn. rewrite (liab_absent v k HW Hn). lia.
Qed.

Lemma loans_del v tv cash k : VWf v -> loans (del v tv cash k) = loans v - liab v k.
Proof.
  intros HW. pose proof HW as (ND & _). unfold loans.
  rewrite (sumf_ext _ (upd (liab v) k 0)) by (intros; apply liab_del). cbn [del v_keys].
  rewrite sumf_upd_notin by (rewrite (remove_key_In _ _ _ ND); tauto).
  destruct (in_dec Nat.eq_dec k (v_keys v)) as [Hin|Hn].
  - rewrite (remove_key_sum (liab v) k _ Hin). lia.
  - rewrite (remove_key_notin k _ Hn), (liab_absent v k HW Hn). lia.
Qed.

Lemma put_keys v tv cash k b s p x : In x (v_keys (put v tv cash k b s p)) <-> x = k \/ In x (v_keys v).
Proof.
  unfold put; cbn [v_keys]. destruct (mem_key k (v_keys v)) eqn:M; [|cbn; intuition].
  apply mem_key_In in M. split; [auto|]. intros [->|H]; assumption.
Qed.

Lemma upd_wf v k b s p : VWf v -> 0 <= b -> 0 <= p <= s -> (b = 0 -> s = p) ->
  (forall x, 0 <= upd (v_b v) k b x /\ 0 <= upd (v_p v) k p x <= upd (v_s v) k s x) /\
  (forall x, upd (v_b v) k b x = 0 -> upd (v_s v) k s x = upd (v_p v) k p x).
Proof.
  intros (_ & _ & HR & HB) Hb Hp Hbz.
  split; intros x; unfold upd; destruct (Nat.eqb x k); auto.
Qed.

Lemma put_wf v tv cash k b s p : VWf v -> 0 <= b -> 0 <= p <= s -> (b = 0 -> s = p) ->
  VWf (put v tv cash k b s p).
Proof.
  intros HW Hb Hp Hbz. destruct (upd_wf v k b s p HW Hb Hp Hbz) as (A & B). destruct HW as (ND & HZ & _).
  split; [|split; [|split; [exact A|exact B]]].
  - unfold put; cbn [v_keys]. destruct (mem_key k (v_keys v)) eqn:M; [exact ND|]. constructor; [|exact ND].
    intros Hin. apply mem_key_In in Hin. congruence.
  - intros x Hx. rewrite put_keys in Hx. unfold put; cbn [v_b v_s v_p]. rewrite !upd_other by tauto. apply HZ. tauto.
Qed.

Lemma del_wf v tv cash k : VWf v -> VWf (del v tv cash k).
Proof.
  intros HW. destruct (upd_wf v k 0 0 0 HW) as (A & B); try lia. destruct HW as (ND & HZ & _).
  split; [apply remove_key_NoDup, ND|split; [|split; [exact A|exact B]]].
  intros x Hx. unfold del in *; cbn [v_keys v_b v_s v_p] in *. rewrite (remove_key_In _ _ _ ND) in Hx.
  destruct (Nat.eq_dec x k) as [->|Ne]; [rewrite !upd_same; auto|]. rewrite !upd_other by exact Ne. apply HZ. tauto.
Qed.

Lemma int_ok_spec v k i : int_ok v k i = true -> 0 <= i /\ (v_b v k = 0 -> i = 0).
Proof.
  unfold int_ok. intros H. apply andb_prop in H. destruct H as [H1 H2]. apply Z.leb_le in H1.
  split; [exact H1|]. intros E. rewrite E in H2. cbn in H2. apply Z.eqb_eq in H2. exact H2.
Qed.

Lemma vstep_ok v o v' : vstep v o = Ok v' ->
  match o with
  | VBond a => 0 < a /\ v' = mkV (v_tv v + a) (v_cash v + a) (v_b v) (v_s v) (v_p v) (v_keys v) (v_don v)
  | VUnbond p => 0 < p <= v_cash v /\ v' = mkV (v_tv v - p) (v_cash v - p) (v_b v) (v_s v) (v_p v) (v_keys v) (v_don v)
  | VBorrow k a i => (0 <= i /\ (v_b v k = 0 -> i = 0)) /\ 0 < a <= v_cash v /\
      10 * (v_tv v - v_cash v + a) <= 9 * v_tv v /\
      v' = put v (v_tv v + i) (v_cash v - a) k (v_b v k + a) (v_s v k + i) (v_p v k)
  | VRepay k a i => (0 <= i /\ (v_b v k = 0 -> i = 0)) /\ 0 < a /\
      let ip := if a <? v_s v k + i - v_p v k then a else v_s v k + i - v_p v k in
      0 <= v_b v k - (a - ip) /\
      v' = if v_b v k - (a - ip) =? 0 then del v (v_tv v + i) (v_cash v + a) k
           else put v (v_tv v + i) (v_cash v + a) k (v_b v k - (a - ip)) (v_s v k + i) (v_p v k + ip)
  | VAccrue k i => (0 <= i /\ (v_b v k = 0 -> i = 0)) /\
      v' = put v (v_tv v + i) (v_cash v) k (v_b v k) (v_s v k + i) (v_p v k)
  | VDonate a => 0 < a /\ v' = mkV (v_tv v) (v_cash v + a) (v_b v) (v_s v) (v_p v) (v_keys v) (v_don v + a)
  | VOut _ => False
  end.
Proof.
  destruct o as [a|p|k a i|k a i|k i|a|a]; cbn [vstep]; intros H; try discriminate.
  - apply guard_lt in H as [A H]. injection H as <-. auto.
  - apply guard_lt in H as [A H]. apply guard_le in H as [C H]. injection H as <-. auto.
  - apply guard_ok in H as [I H]. apply guard_lt in H as [A H]. rewrite cap_decision in H.
    apply guard_ok in H as [C H]. apply guard_le in H as [C2 H].
    apply int_ok_spec in I. apply negb_true_iff, Z.ltb_ge in C. injection H as <-. auto.
  - apply guard_ok in H as [I H]. apply guard_lt in H as [A H]. cbv zeta in H. apply guard_le in H as [G H].
    apply int_ok_spec in I. cbv zeta. repeat split; try tauto. destruct (_ =? 0); injection H as <-; reflexivity.
  - apply guard_ok in H as [I H]. apply int_ok_spec in I. injection H as <-. auto.
  - apply guard_lt in H as [A H]. injection H as <-. auto.
Qed.

(* Repay on a well-formed store. The point: a record whose principal reaches 0 had its interest paid in full, because
   interest is paid first and a zero principal stacks none; so the record is deleted exactly when nothing is owed. *)
Lemma vrepay_ok v k a i v' : VWf v -> vstep v (VRepay k a i) = Ok v' ->
  0 <= i /\ 0 < a <= liab v k + i /\ VWf v' /\
  v_tv v' = v_tv v + i /\ v_cash v' = v_cash v + a /\ v_don v' = v_don v /\
  liab v' k = liab v k + i - a /\ loans v' = loans v + i - a /\
  (In k (v_keys v') <-> a < liab v k + i).
Proof.
  intros HW H. apply vstep_ok in H as ((I0 & I1) & A & H). cbv zeta in H.
  pose proof HW as (ND & _ & HR & HB). destruct (HR k) as (R1 & R2 & R3). specialize (HB k).
  set (ip := if a <? _ then a else _) in *.
  assert (Hip : 0 <= ip <= v_s v k + i - v_p v k /\ ip <= a /\ (ip < v_s v k + i - v_p v k -> ip = a)).
  { unfold ip. destruct (Z.ltb_spec a (v_s v k + i - v_p v k)); lia. }
  destruct H as (G & ->). split; [exact I0|]. split; [unfold liab; lia|].
  destruct (Z.eqb_spec (v_b v k - (a - ip)) 0) as [Z0|Z0].
  - (* the point above: were interest left unpaid, all of [a] went to interest and the principal was 0 before *)
    assert (ip = v_s v k + i - v_p v k) by lia. split; [apply del_wf, HW|].
    rewrite loans_del, liab_del, upd_same by exact HW. unfold liab, del; cbn [v_tv v_cash v_don v_keys].
    rewrite (remove_key_In _ _ _ ND). repeat split; try lia; tauto.
  - split; [apply put_wf; [exact HW|lia..]|].
    rewrite loans_put, liab_put, upd_same, put_keys by exact HW. unfold liab, put; cbn [v_tv v_cash v_don].
    repeat split; try lia; auto.
Qed.

Lemma vstep_keeps v o v' : VWf v -> vstep v o = Ok v' ->
  VWf v' /\ v_tv v' + v_don v' - (v_cash v' + loans v') = v_tv v + v_don v - (v_cash v + loans v) /\
  v_don v <= v_don v' /\ (is_donate o = false -> v_don v' = v_don v).
Proof.
  intros HW H. destruct o as [a|p|k a i|k a i|k i|a|a].
  - apply vstep_ok in H as (A & ->). split; [exact HW|]. unfold loans, liab; cbn. repeat split; lia.
  - apply vstep_ok in H as (A & ->). split; [exact HW|]. unfold loans, liab; cbn. repeat split; lia.
  - apply vstep_ok in H as ((I0 & I1) & A & _ & ->). pose proof HW as (_ & _ & HR & HB).
    destruct (HR k) as (R1 & R2 & R3). split; [apply put_wf; [exact HW|lia..]|].
    rewrite loans_put by exact HW. unfold liab, put; cbn [v_tv v_cash v_don]. repeat split; lia.
  - destruct (vrepay_ok v k a i v' HW H) as (_ & _ & W & -> & -> & -> & _ & -> & _). split; [exact W|]. repeat split; lia.
  - apply vstep_ok in H as ((I0 & I1) & ->). pose proof HW as (_ & _ & HR & HB).
    destruct (HR k) as (R1 & R2 & R3). specialize (HB k). split; [apply put_wf; [exact HW|lia..]|].
    rewrite loans_put by exact HW. unfold liab, put; cbn [v_tv v_cash v_don]. repeat split; lia.
  - apply vstep_ok in H as (A & ->). split; [exact HW|]. unfold loans, liab; cbn. repeat split; try lia; discriminate.
  - apply vstep_ok in H as [].
Qed.

Lemma vstep_inv v o v' : VInv v -> vstep v o = Ok v' -> VInv v'.
Proof. intros (HE & HW & HD) H. destruct (vstep_keeps v o v' HW H) as (W & E & D & _). split; [lia|]. split; [exact W|lia]. Qed.

(* [vstep], which accepts a transfer to the module account: every history keeps the equation up to the ghost *)
Theorem vrun_inv h v : VInv v -> VInv (vrun vstep v h).
Proof.
  apply (txs_inv VInv (fun _ => True) vstep (vsteps vstep) (fun _ => eq_refl) (fun _ _ _ => eq_refl)).
  - intros v1 o v2 _. apply vstep_inv.
  - apply Forall_Forall_in. auto.
Qed.

Definition VInv0 (v : vault) : Prop := VInv v /\ v_don v = 0.

Lemma vault_empty_inv0 : VInv0 vault_empty.
Proof. split; [exact vault_empty_inv|reflexivity]. Qed.

Lemma vstep_inv0 v o v' : is_donate o = false -> VInv0 v -> vstep v o = Ok v' -> VInv0 v'.
Proof.
  intros Hd [HI H0] H. split; [exact (vstep_inv v o v' HI H)|].
  destruct HI as (_ & HW & _). destruct (vstep_keeps v o v' HW H) as (_ & _ & _ & D). rewrite (D Hd). exact H0.
Qed.

Lemma vstep_fixed_sub v o v' : vstep_fixed v o = Ok v' -> vstep v o = Ok v' /\ is_donate o = false.
Proof. destruct o; cbn; intros H; try discriminate; auto. Qed.

(* [vstep_fixed] refuses that transfer: every history, attempted donations included, has received nothing *)
Theorem vrun_fixed_inv0 h v : VInv0 v -> VInv0 (vrun vstep_fixed v h).
Proof.
  apply (txs_inv VInv0 (fun _ => True) vstep_fixed (vsteps vstep_fixed) (fun _ => eq_refl) (fun _ _ _ => eq_refl)).
  - intros v1 o v2 _ HI H. apply vstep_fixed_sub in H as [H Hd]. exact (vstep_inv0 v1 o v2 Hd HI H).
  - apply Forall_Forall_in. auto.
Qed.

Lemma step_eq_fixed_off_sites v o : is_donate o = false -> vstep_fixed v o = vstep v o.
Proof. destruct o; cbn; intros H; try discriminate; reflexivity. Qed.

Lemma vsteps_fixed_eq l : Forall (fun o => is_donate o = false) l -> forall v, vsteps vstep_fixed v l = vsteps vstep v l.
Proof.
  induction 1 as [|o r Ho Hr IH]; intros v; cbn; [reflexivity|].
  rewrite (step_eq_fixed_off_sites v o Ho). destruct (vstep v o); cbn; auto.
Qed.

Definition no_donation (h : list (list vop)) : Prop := Forall (Forall (fun o => is_donate o = false)) h.

Theorem vrun_fixed_eq h : no_donation h -> forall v, vrun vstep_fixed v h = vrun vstep v h.
Proof.
  unfold vrun. induction 1 as [|l r Hl Hr IH]; intros v; cbn [fold_left]; [reflexivity|].
  replace (vtx vstep_fixed v l) with (vtx vstep v l); [apply IH|].
  unfold vtx, run_tx. rewrite (vsteps_fixed_eq l Hl v). reflexivity.
Qed.
