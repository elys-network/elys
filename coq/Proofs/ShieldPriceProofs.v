(* Proofs about Models/ShieldPrice.v: the market price x/tradeshield computes for a spot order's pair. About
   [market_price], the two-stage computation before fix 12bba76 (still the fallback path), except where
   [market_price_fixed] is named:
     - each of its two LegacyDec stages is within half a unit (+ one truncation) of the 18th digit of the exact quotient;
     - it is monotone in the base asset's oracle price and antitone in the quote asset's;
     - the trigger decision is monotone in the market price, hence in the oracle prices;
     - the first stage (USD value of ONE base unit, price / 10^decimals in 18 digits) loses the digits of the price below
       10^(decimals-18): witnesses of orders it executes although the exact market price does not meet their trigger. *)
From Coq Require Import ZArith List Bool Lia.
From Elys Require Import Base.Zdec Models.Shield Models.ShieldPrice.
Import ListNotations.
Open Scope Z_scope.

Lemma pow10_pos n : 0 <= n -> 0 < pow10 n.
Proof. intro H. unfold pow10. apply Z.pow_pos_nonneg; lia. Qed.

(* Dec(1).Mul is exact: the USD value of one base unit is the one quotient price / 10^decimals *)
Lemma usd_value_unit p dec : usd_value_of_one p dec = dquo p (pow10 dec * PREC).
Proof. unfold usd_value_of_one, unit_price, dec_of_int. rewrite dmul_int_l. apply Z.mul_1_l. Qed.

(* where the price is a multiple of 10^decimals - at most 18-decimals digits - nothing is lost in stage 1
   (all prices the fixture starts from; 12 digits for the 6-decimals assets) *)
Lemma usd_value_exact k dec : 0 <= dec -> usd_value_of_one (k * pow10 dec) dec = k.
Proof.
  intros D. pose proof (pow10_pos dec D). pose proof PREC_pos.
  rewrite usd_value_unit. apply dquo_exact; [lia|ring].
Qed.

(* Quo is within (1/2 + 10^-18) units of the 18th digit of the exact quotient *)
Lemma dquo_bound n d : 0 <= n -> 0 < d ->
  0 <= dquo n d /\ Z.abs (dquo n d * d - n * PREC) * PREC <= d * (HALF + 1).
Proof. intros N D. destruct (dquo_bounds n d N D) as [A B]. split; [exact A|lia]. Qed.

Lemma usd_value_bound p dec : 0 <= p -> 0 <= dec ->
  let a := usd_value_of_one p dec in
  0 <= a /\ Z.abs (a * pow10 dec - p) * PREC <= pow10 dec * (HALF + 1).
Proof.
  intros P D. cbv zeta. rewrite usd_value_unit. pose proof (pow10_pos dec D) as T. pose proof PREC_pos.
  destruct (dquo_bound p (pow10 dec * PREC) P ltac:(lia)) as [A B]. split; [exact A|].
  set (a := dquo p (pow10 dec * PREC)) in *.
  replace (a * (pow10 dec * PREC) - p * PREC) with ((a * pow10 dec - p) * PREC) in B by ring.
  rewrite Z.abs_mul, (Z.abs_eq PREC) in B by lia.
  apply Z.mul_le_mono_pos_r with (p := PREC); lia.
Qed.

Lemma usd_value_nonneg p dec : 0 <= p -> 0 <= dec -> 0 <= usd_value_of_one p dec.
Proof. intros P D. apply (usd_value_bound p dec P D). Qed.

Lemma usd_value_mono p p' dec : 0 <= p <= p' -> 0 <= dec -> usd_value_of_one p dec <= usd_value_of_one p' dec.
Proof.
  intros P D. rewrite !usd_value_unit. pose proof (pow10_pos dec D). pose proof PREC_pos.
  apply dquo_mono; lia.
Qed.

(* 10^dec is 0 for a negative exponent, and Quo by zero is 0 here *)
Lemma usd_value_neg_dec p dec : dec < 0 -> usd_value_of_one p dec = 0.
Proof.
  intros D. rewrite usd_value_unit. unfold pow10, dquo. rewrite Z.pow_neg_r by exact D.
  destruct (p * PREC * PREC); reflexivity.
Qed.

(* stage 2 is one more Quo of the two values, refused when either is zero (so the decimals are not negative) *)
Lemma market_price_ok pin din pout dout mp : market_price pin din pout dout = Some mp ->
  0 <= din /\ 0 <= dout /\ usd_value_of_one pin din <> 0 /\ usd_value_of_one pout dout <> 0 /\
  mp = dquo (usd_value_of_one pin din) (usd_value_of_one pout dout).
Proof.
  unfold market_price. cbv zeta.
  destruct (Z.eqb_spec (usd_value_of_one pin din) 0) as [|A]; [discriminate|].
  destruct (Z.eqb_spec (usd_value_of_one pout dout) 0) as [|B]; [discriminate|].
  intros H. injection H as <-.
  assert (N : forall p dec, usd_value_of_one p dec <> 0 -> 0 <= dec).
  { intros p dec V. destruct (Z.lt_ge_cases dec 0) as [L|L]; [destruct (V (usd_value_neg_dec p dec L))|exact L]. }
  repeat split; eauto.
Qed.

(* it may become unavailable, only because the quote's per-unit value rounds to zero *)
Theorem market_price_monotone : forall pin pin' din pout pout' dout m,
  0 <= pin <= pin' -> 0 <= pout' <= pout ->
  market_price pin din pout dout = Some m ->
  market_price pin' din pout' dout = None \/
  exists m', market_price pin' din pout' dout = Some m' /\ m <= m'.
Proof.
  intros pin pin' din pout pout' dout m Pi Po H.
  destruct (market_price_ok _ _ _ _ _ H) as (Di & Do & A & B & ->).
  pose proof (usd_value_nonneg pin din ltac:(lia) Di). pose proof (usd_value_nonneg pout' dout ltac:(lia) Do).
  pose proof (usd_value_mono pin pin' din Pi Di). pose proof (usd_value_mono pout' pout dout Po Do).
  unfold market_price. cbv zeta.
  destruct (Z.eqb_spec (usd_value_of_one pin' din) 0); [lia|].
  destruct (Z.eqb_spec (usd_value_of_one pout' dout) 0); [left; reflexivity|].
  right. eexists. split; [reflexivity|]. apply dquo_mono; lia.
Qed.

Theorem market_price_monotone_base : forall pin pin' din pout dout m,
  0 <= pin <= pin' -> 0 <= pout ->
  market_price pin din pout dout = Some m ->
  exists m', market_price pin' din pout dout = Some m' /\ m <= m'.
Proof.
  intros pin pin' din pout dout m Pi Po H.
  destruct (market_price_monotone pin pin' din pout pout dout m Pi ltac:(lia) H) as [N|X]; [|exact X].
  destruct (market_price_ok _ _ _ _ _ H) as (Di & _ & A & B & _).
  pose proof (usd_value_nonneg pin din ltac:(lia) Di). pose proof (usd_value_mono pin pin' din Pi Di).
  unfold market_price in N. cbv zeta in N.
  destruct (Z.eqb_spec (usd_value_of_one pin' din) 0); [lia|].
  destruct (Z.eqb_spec (usd_value_of_one pout dout) 0); [contradiction|discriminate].
Qed.

(* the code since fix: 12bba76: one rounding *)
Lemma market_price_fixed_ok pin din pout dout mp : market_price_fixed pin din pout dout = Some mp ->
  0 < pin /\ 0 < pout /\
  mp = if din <=? dout then dquo (pin * pow10 (dout - din)) pout else dquo pin (pout * pow10 (din - dout)).
Proof.
  unfold market_price_fixed, dmul_int.
  destruct (Z.leb_spec pin 0); [discriminate|]. destruct (Z.leb_spec pout 0); [discriminate|].
  destruct (din <=? dout); intros E; injection E as <-; auto.
Qed.

(* the decision of ExecuteOrders in the market price. Spot LIMITSELL (1) and perpetual SHORT (2):
   a trigger that is met stays met at any higher price; spot STOPLOSS / LIMITBUY and perpetual LONG: at any lower price. *)
Definition rising (o : order) : bool := if o_perp o then o_type o =? 2 else o_type o =? 1.
Definition falling (o : order) : bool := if o_perp o then o_type o =? 1 else negb (o_type o =? 1).

Lemma triggered_rising o mp : rising o = true -> triggered o mp = negb (mp <? o_rate o).
Proof.
  unfold rising, triggered. destruct (o_perp o); [destruct (Z.eqb_spec (o_type o) 1) as [->|]|];
    intros E; [discriminate E|rewrite E; reflexivity..].
Qed.

Lemma triggered_falling o mp : falling o = true -> triggered o mp = negb (o_rate o <? mp).
Proof.
  unfold falling, triggered. destruct (o_perp o), (o_type o =? 1); intros E; [reflexivity|discriminate E..|reflexivity].
Qed.

Theorem trigger_monotone : forall o mp mp', triggered o mp = true ->
  (rising o = true -> mp <= mp' -> triggered o mp' = true) /\
  (falling o = true -> mp' <= mp -> triggered o mp' = true).
Proof.
  intros o mp mp' T.
  split; intros R L; [rewrite !(triggered_rising o) in * by exact R|rewrite !(triggered_falling o) in * by exact R];
    rewrite negb_true_iff, Z.ltb_ge in *; lia.
Qed.

Theorem trigger_monotone_base : forall o pin pin' din pout dout m, rising o = true ->
  0 <= pin <= pin' -> 0 <= pout -> market_price pin din pout dout = Some m -> triggered o m = true ->
  exists m', market_price pin' din pout dout = Some m' /\ triggered o m' = true.
Proof.
  intros o pin pin' din pout dout m R Pi Po H T.
  destruct (market_price_monotone_base _ _ _ _ _ _ Pi Po H) as (m' & H' & L).
  exists m'. split; [exact H'|]. exact (proj1 (trigger_monotone o m m' T) R L).
Qed.

Theorem exact_ge_monotone : forall pin pin' din pout dout rate,
  0 <= pin <= pin' -> 0 <= dout -> exact_ge pin din pout dout rate = true -> exact_ge pin' din pout dout rate = true.
Proof.
  intros pin pin' din pout dout rate P D. unfold exact_ge. rewrite !Z.leb_le. intros H.
  pose proof (pow10_pos dout D). pose proof PREC_pos.
  assert (pin * pow10 dout * PREC <= pin' * pow10 dout * PREC) by (apply Z.mul_le_mono_nonneg_r; nia). lia.
Qed.

(* [market_price] does not decide the trigger as the exact price does (witnesses of Props/C20.v).
   aweth (18 decimals) at 2000.6 USD, uusdc (6 decimals) at 1 USD: one base unit of aweth is worth 2000.6e-18 USD, which
   LegacyDec stores as 2001e-18; its price of aweth in uusdc is 2.001e-9, the exact one 2.0006e-9.
   A LIMITSELL of aweth for uusdc at rate 2.0008e-9 (2000.8 USD per WETH) was executed by anybody's MsgExecuteOrders although
   the market (2000.6) is below the limit.  Same loss with 6 decimals on the 13th digit: uatom at 5.0000000000004 USD is taken
   as 5.000000000000, a STOPLOSS at 5.0000000000002 is executed although the market is above it. *)
Definition w_weth : Z := 2000600000000000000000.   (* 2000.6 *)
Definition w_usdc : Z := 1000000000000000000.      (* 1.0 *)
Definition w_sell : order := spot_order 1 2000800000.          (* LIMITSELL, rate 0.0000000020008 uusdc per aweth *)
Definition w_atom : Z := 5000000000000400000.      (* 5.0000000000004 *)
Definition w_stop : order := spot_order 0 5000000000000200000. (* STOPLOSS, rate 5.0000000000002 uusdc per uatom *)
