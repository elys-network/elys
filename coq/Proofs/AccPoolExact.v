(* C11: the hook discipline of Models/AccPool.v is not only sufficient but (up to changes that cancel inside
   liabilities - custody) NECESSARY: from a consistent accounted pool a code path keeps the accounted pool consistent
   IF AND ONLY IF it satisfies [needed]. *)
From Coq Require Import ZArith List Bool Lia.
From Elys Require Import Models.AccPool Proofs.AccPoolProofs.
Import ListNotations.
Open Scope Z_scope.

Definition needed (s : acc) (o : accop) : Prop :=
  match o with
  | AChange R' L' C' HAmmFresh => L' - C' = a_L s - a_C s
  | AChange _ _ _ HPerpFresh => True
  | AChange R' L' C' HPerpStaleAmm => R' = a_R s
  | AChange R' L' C' HNone => R' = a_R s /\ L' - C' = a_L s - a_C s
  end.

Lemma disciplined_needed s o : disciplined s o -> needed s o.
Proof.
  destruct o as [R' L' C' h]. destruct h; cbn; intros D.
  - destruct D as [-> ->]. reflexivity.
  - exact I.
  - exact D.
  - destruct D as (-> & -> & ->). split; reflexivity.
Qed.

Theorem accstep_inv_iff s o : AInv s -> (AInv (accstep s o) <-> needed s o).
Proof.
  intros [HT HN]. destruct o as [R' L' C' h]. destruct h; cbn; unfold AInv; cbn; intuition lia.
Qed.

Lemma accstep_inv s o : AInv s -> disciplined s o -> AInv (accstep s o).
Proof. intros HI D. apply (accstep_inv_iff s o HI), disciplined_needed, D. Qed.

Lemma fixed_step_inv s R' L' C' : AInv s -> AInv (fixed_step s R' L' C').
Proof.
  intros HI. unfold fixed_step. destruct ((L' =? a_L s) && (C' =? a_C s)) eqn:E; apply accstep_inv; auto; [|exact I].
  apply andb_prop in E. destruct E as [E1 E2]. apply Z.eqb_eq in E1, E2. cbn. auto.
Qed.

Fixpoint needed_run (s : acc) (h : list accop) : Prop :=
  match h with [] => True | o :: r => needed s o /\ needed_run (accstep s o) r end.
Fixpoint inv_along (s : acc) (h : list accop) : Prop :=
  match h with [] => True | o :: r => AInv (accstep s o) /\ inv_along (accstep s o) r end.
