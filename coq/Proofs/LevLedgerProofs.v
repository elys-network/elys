From Coq Require Import ZArith List Lia.
From Elys Require Import Base.Res Base.ResFacts Base.Fn Models.SumLedger Proofs.SumLedgerProofs Models.LevLedger.
Import ListNotations.
Open Scope Z_scope.

Definition LInv (s : lev) : Prop :=
  SInv (l_sl s) /\
  (forall k, In k (keys (l_sl s)) -> l_comm s k = parts (l_sl s) k /\ 0 < parts (l_sl s) k) /\
  (forall k, ~ In k (keys (l_sl s)) -> l_comm s k = 0 /\ parts (l_sl s) k = 0).

Definition pos_amt (o : lop) : Z := match o with LOpen _ a | LClose _ a => a end.

Lemma lclose_iff s k a s' : lstep s (LClose k a) = Ok s' <->
  a <= l_comm s k /\ In k (keys (l_sl s)) /\ 0 <= a <= parts (l_sl s) k /\
  s' = mkLev (mkSL (upd (parts (l_sl s)) k (parts (l_sl s) k - a))
                   (if parts (l_sl s) k - a =? 0 then remove_key k (keys (l_sl s)) else keys (l_sl s))
                   (total (l_sl s) - a)
                   (if parts (l_sl s) k - a =? 0 then count (l_sl s) - 1 else count (l_sl s)))
             (upd (l_comm s) k (l_comm s k - a)).
Proof.
  cbn [lstep sstep]. rewrite <- (mem_key_In k).
  destruct (Z.ltb_spec (l_comm s k) a); [split; [discriminate|lia]|].
  destruct (mem_key k (keys (l_sl s))) eqn:M; cbn [negb bind]; [|split; [discriminate|intros (_ & [=] & _)]].
  destruct (Z.ltb_spec a 0); cbn [orb]; [split; [discriminate|lia]|].
  destruct (Z.ltb_spec (parts (l_sl s) k) a); cbn [bind]; [split; [discriminate|lia]|].
  cbn [parts keys]. rewrite upd_same. destruct (parts (l_sl s) k - a =? 0) eqn:Z0.
  - cbn [sstep keys parts]. rewrite M. cbn [negb bind total count].
    split; [intros [= <-]; auto|intros (_ & _ & _ & ->); reflexivity].
  - cbn [bind]. split; [intros [= <-]; auto|intros (_ & _ & _ & ->); reflexivity].
Qed.

Lemma lstep_sinv s o s' : SInv (l_sl s) -> lstep s o = Ok s' -> SInv (l_sl s').
Proof.
  intros HS H. destruct o as [k a|k a]; cbn [lstep] in H.
  - apply bind_ok in H as (t & E & H). injection H as <-. exact (sstep_inv _ _ _ HS E).
  - destruct (l_comm s k <? a); [discriminate|]. apply bind_ok in H as (t & E & H). apply bind_ok in H as (t' & E' & H).
    injection H as <-. pose proof (sstep_inv _ _ _ HS E) as Ht.
    destruct (parts t k =? 0); [exact (sstep_inv _ _ _ Ht E')|injection E' as <-; exact Ht].
Qed.

Lemma lstep_inv s o s' : LInv s -> 0 < pos_amt o -> lstep s o = Ok s' -> LInv s'.
Proof.
  intros (HS & HK & HN) Hpos H. split; [exact (lstep_sinv s o s' HS H)|].
  destruct o as [k a|k a]; cbn [pos_amt] in Hpos.
  - cbn [lstep] in H. apply bind_ok in H as (t & E & H). injection H as <-. cbn [l_sl l_comm].
    destruct (scredit_ok _ _ _ _ E) as (_ & _ & K & P1 & P2 & P3).
    assert (Pk : parts t k = parts (l_sl s) k + a /\ l_comm s k = parts (l_sl s) k /\ 0 <= parts (l_sl s) k).
    { destruct (in_dec Nat.eq_dec k (keys (l_sl s))) as [Hi|Hn].
      - rewrite (P1 Hi). destruct (HK k Hi). lia.
      - rewrite (P2 Hn). destruct (HN k Hn). lia. }
    split; intros x Hx; rewrite K in Hx; (destruct (Nat.eq_dec x k) as [->|Ne]; [rewrite upd_same|rewrite upd_other, P3 by exact Ne]).
    + lia.
    + apply HK. tauto.
    + tauto.
    + apply HN. tauto.
  - apply lclose_iff in H as (C & Hin & A & ->). cbn [l_sl l_comm keys parts]. destruct HS as (ND & _).
    destruct (HK k Hin) as (Ck & Pk).
    assert (K : forall x, In x (if parts (l_sl s) k - a =? 0 then remove_key k (keys (l_sl s)) else keys (l_sl s)) <->
                          In x (keys (l_sl s)) /\ (x = k -> parts (l_sl s) k - a <> 0)).
    { intros x. destruct (Z.eqb_spec (parts (l_sl s) k - a) 0); [rewrite (remove_key_In _ _ _ ND)|]; intuition congruence. }
    split; intros x Hx; rewrite K in Hx; (destruct (Nat.eq_dec x k) as [->|Ne]; [rewrite !upd_same|rewrite !upd_other by exact Ne]).
    + pose proof (proj2 Hx eq_refl). lia.
    + apply HK, Hx.
    + destruct (Z.eq_dec (parts (l_sl s) k - a) 0); [lia|tauto].
    + apply HN. tauto.
Qed.

Theorem lrun_inv h : forall s, LInv s -> Forall (fun o => 0 < pos_amt o) h -> LInv (lrun s h).
Proof.
  intros s HI Hf. revert s Hf HI. apply (execs_inv LInv (fun o => 0 < pos_amt o) lstep).
  intros s o s' Hp HI. exact (lstep_inv s o s' HI Hp).
Qed.

Lemma lev_empty_inv : LInv lev_empty.
Proof.
  split; [apply sl_empty_inv|]. split; cbn.
  - intros k [].
  - intros k _. split; reflexivity.
Qed.
