(* C04, routes that revisit pools. The lemmas about the exact-in hop loop (Proofs/SwapQueueProofs.v) hold for EVERY
   hop list (no NoDup / distinct-pool premise anywhere: a route may use one pool on several hops, in a row or A-B-A).
   The hop loop decides "this is the last hop" by POSITION (is_nil rest), as route_exact_amount_in.go does
   (len(routes)-1 == i); a decision by pool id differs exactly on routes that revisit their last pool: the variant
   and the witness below, used by C04_last_hop_is_by_position_witness. *)
From Coq Require Import ZArith List Lia.
From Elys Require Import Base.Res Models.SwapQueue Proofs.SwapQueueProofs.
Import ListNotations.
Open Scope Z_scope.

Lemma in_loop_len e s rc lim : forall hops cs din ain b b',
  in_loop e s rc hops cs lim din ain b = Ok b' -> (length hops <= length cs)%nat.
Proof.
  induction hops as [|[p dout] rest IH]; intros cs din ain b b' H; [cbn; lia|].
  apply in_loop_cons in H. destruct H as (c & cs' & b1 & -> & _ & _ & _ & H). apply IH in H. cbn. lia.
Qed.

(* what "last hop" must mean:
   [in_loop_by_pool] is NOT the code: it is in_loop with one site changed - the last hop is recognised by its pool id
   (p = pool of the last route entry) instead of by its position. On the route pool 1 (denom 0 -> 1), pool 1
   (denom 1 -> 0), sender 1, recipient 2, it treats the first hop as final: the recipient keeps the intermediate
   denom 1 and the sender pays the second hop from its own holdings of denom 1 -
   C04_exact_in_intermediate_denoms_untouched fails for it, while the coded loop on the same inputs leaves denom 1
   of both untouched. *)
Fixpoint in_loop_by_pool (lastp : nat) (e : env) (s rc : nat) (hops : list (nat * nat)) (cs : list hopc) (lim : Z)
         (din : nat) (ain : Z) (b : bank) : res bank :=
  match hops with
  | [] => Ok b
  | (p, dout) :: rest =>
      match cs with
      | [] => Err 9
      | c :: cs' =>
          let last := Nat.eqb p lastp in
          let to := if last then rc else s in
          let minout := if last then lim else 1 in
          if Nat.eqb din dout then Err 2 else
          if h_fail_pre c then Err 1 else
          if h_amt c <=? 0 then Err 3 else
          if h_amt c <? minout then Err 4 else
          do b1 <- do_hop e b s to p din ain dout (h_amt c) c;
          in_loop_by_pool lastp e s rc rest cs' lim dout (h_amt c) b1
      end
  end.

Definition rv_bank : bank := fun a d =>
  if Nat.eqb a 1 then 1000000 else if Nat.eqb a 101 then 100000000 else 0.
Definition rv_req : req := mkReq 1 KIn 1 2 [(1, 1); (1, 0)]%nat 0 1000 1 [] [].
Definition rv_choice : choice := mkCh false [] [mkHop false 199 [] 0 false; mkHop false 990 [] 0 false].
