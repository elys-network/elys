From Coq Require Import ZArith.
From Elys Require Import Models.AccPool.
Open Scope Z_scope.

(* C11: what the two hook families of Models/AccPool.v have to keep true between them *)
Definition AInv (s : acc) : Prop := a_T s = a_R s + a_L s - a_C s /\ a_N s = a_L s - a_C s.
