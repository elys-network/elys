(* C02: what a join / exit does, per account and to the four totals; the invariant, exactness, frame and the histories
   follow from that one description.  Model: Models/Shares.v over Models/SumLedger.v. *)
From Coq Require Import ZArith List Bool Lia.
From Elys Require Import Base.Res Base.ResFacts Base.Fn Models.SumLedger Proofs.SumLedgerProofs Models.Shares Proofs.SharesProofs.
Import ListNotations.
Open Scope Z_scope.

Definition sh_acct (o : shop) : nat := match o with ShJoin k _ | ShExit k _ => k end.
Definition sh_delta (o : shop) : Z := match o with ShJoin _ a => a | ShExit _ a => - a end.

(* the first group of conjuncts is what C02_step_exact_and_frame states; the rest is what the invariant needs *)
Lemma shstep_effect s o s' : shstep s o = Ok s' ->
  ((In (sh_acct o) (keys (sh_sl s)) -> parts (sh_sl s') (sh_acct o) = parts (sh_sl s) (sh_acct o) + sh_delta o) /\
   (~ In (sh_acct o) (keys (sh_sl s)) -> parts (sh_sl s') (sh_acct o) = sh_delta o) /\
   (forall k, k <> sh_acct o -> parts (sh_sl s') k = parts (sh_sl s) k) /\
   total (sh_sl s') = total (sh_sl s) + sh_delta o /\
   sh_tshares s' = sh_tshares s + sh_delta o /\
   sh_custody s' = sh_custody s + sh_delta o /\
   In (sh_acct o) (keys (sh_sl s'))) /\
  0 < (match o with ShJoin _ a | ShExit _ a => a end) /\
  (exists p, sstep (sh_sl s) p = Ok (sh_sl s')) /\
  (forall x, sh_wallet s' x = sh_wallet s x) /\ sh_amm s' = sh_amm s.
Proof.
  assert (W : forall (w : nat -> Z) k a x, upd (upd w k (w k + a)) k (upd w k (w k + a) k - a) x = w x).
  { intros w k a x. unfold upd. destruct (Nat.eqb_spec x k) as [->|]; [rewrite Nat.eqb_refl|]; lia. }
  destruct o as [k a|k a]; cbn [shstep sh_acct sh_delta]; intros E.
  - unfold sh_join in E. apply guard_ok in E as [A E]. apply Z.ltb_lt in A. apply bind_ok in E as (t & E1 & E).
    injection E as <-. cbn [sh_sl sh_tshares sh_custody sh_wallet sh_amm].
    destruct (scredit_ok _ _ _ _ E1) as (_ & T & K & P1 & P2 & P3).
    repeat split; eauto; try lia. apply K. left. reflexivity.
  - unfold sh_exit in E. apply guard_ok in E as [A E]. apply Z.ltb_lt in A. apply guard_ok in E as [_ E].
    apply bind_ok in E as (t & E1 & E). apply guard_ok in E as [_ E].
    injection E as <-. cbn [sh_sl sh_tshares sh_custody sh_wallet sh_amm].
    destruct (sstep_ok _ _ _ E1) as (Hin & _ & ->). cbn [parts keys total].
    repeat split; eauto; try lia.
    + intros _. rewrite upd_same. lia.
    + contradiction.
    + intros x Hx. apply upd_other. exact Hx.
Qed.

Lemma shstep_inv s o s' : ShInv s -> shstep s o = Ok s' -> ShInv s'.
Proof.
  intros (HS & HT & HC & HW & HA) H.
  destruct (shstep_effect s o s' H) as ((_ & _ & _ & T & TS & CU & _) & _ & (p & Ep) & W & Am).
  split; [exact (sstep_inv _ _ _ HS Ep)|]. repeat split; try lia. intros x. rewrite W. apply HW.
Qed.

Theorem shrun_inv h s : ShInv s -> ShInv (shrun s h).
Proof.
  apply (execs_inv ShInv (fun _ => True) shstep); [|apply Forall_all; auto].
  intros s1 o s2 _. apply shstep_inv.
Qed.

Lemma sh_exit_beyond_committed_refused s k a :
  parts (sh_sl s) k < a -> exists c, shstep s (ShExit k a) = Err c.
Proof.
  intros H. cbn [shstep]. unfold sh_exit, guard. destruct (0 <? a) eqn:A; [|eexists; reflexivity].
  destruct (0 <=? sh_tshares s - a); [|eexists; reflexivity].
  cbn [sstep]. destruct (mem_key k (keys (sh_sl s))); cbn [negb]; [|eexists; reflexivity].
  assert (L : (parts (sh_sl s) k <? a) = true) by (apply Z.ltb_lt; exact H).
  rewrite L, orb_true_r. eexists; reflexivity.
Qed.

Lemma shrun_other_accounts h : forall s k, (forall o, In o h -> sh_acct o <> k) ->
  parts (sh_sl (shrun s h)) k = parts (sh_sl s) k.
Proof.
  intros s k Hk. apply Forall_forall in Hk. revert s Hk.
  apply (execs_rel (fun s s' => parts (sh_sl s') k = parts (sh_sl s) k) (fun o => sh_acct o <> k)); [reflexivity|congruence|].
  intros s o s' Ho H. apply (shstep_effect s o s' H). congruence.
Qed.
