(* C17 - proofs. Two kinds of statement:
   (1) decidable obligations on the REGENERATED table Generated.Handlers.handlers, by vm_compute:
       they stop checking when a handler loses / inverts / postpones its authority check;
   (2) semantic lemmas over ALL messages, authorities, states, owner functions and choice lists. *)
From Coq Require Import String List Bool.
From Elys Require Import Base.Res Base.ListFacts Models.Authority Generated.Handlers.
Import ListNotations.
Open Scope string_scope.

Lemma in_filtered {A} : forall (p q : A -> bool) l h,
  forallb q (filter p l) = true -> In h l -> p h = true -> q h = true.
Proof.
  intros p q l h Hall Hin Hp.
  rewrite forallb_forall in Hall. apply Hall. apply filter_In. split; assumption.
Qed.

Section Sem.
  Variable state : Type.
  Variable owner : state -> option string.
  Variable msg : message.
  Variable auth : string.
  Variable s : state.

  (* the statements that neither write nor return successfully *)
  Definition quiet (st : stmt) : bool :=
    match st with SPure | SRead _ | SCheck | SGuardAuthority _ => true | _ => false end.

  Definition fails (sk : list stmt) : Prop := forall chs, exists c, run_skel owner sk msg auth s chs = (Err c, s).

  Lemma run_quiet : forall st r chs, quiet st = true ->
    (exists c, run_skel owner (st :: r) msg auth s chs = (Err c, s)) \/
    exists chs', run_skel owner (st :: r) msg auth s chs = run_skel owner r msg auth s chs'.
  Proof.
    intros st r chs. destruct st; try discriminate; intros _; cbn; eauto.
    - destruct chs as [|[] chs']; eauto.
    - destruct (String.eqb (msg field) auth); eauto.
  Qed.

  (* a guard that accepts only quiet statements in front of a failing one: one induction for all of them *)
  Lemma quiet_prefix_fails : forall G : list stmt -> bool, G [] = false ->
    (forall st r, G (st :: r) = true -> quiet st = true /\ G r = true \/ fails (st :: r)) ->
    forall sk, G sk = true -> fails sk.
  Proof.
    intros G Hnil Hcons. induction sk as [|st r IH]; intros H; [congruence|].
    destruct (Hcons st r H) as [[Hq Hr]|Hf]; [|exact Hf]. intros chs.
    destruct (run_quiet st r chs Hq) as [Hc|[chs' E]]; [exact Hc|]. rewrite E. apply (IH Hr).
  Qed.

  Lemma prefix_guard_authority_rejects : forall signer sk,
    prefix_guard_authority signer sk = true -> msg signer <> auth -> fails sk.
  Proof.
    intros signer sk Hg Hne. revert sk Hg. apply quiet_prefix_fails; [reflexivity|]. intros st r H.
    destruct st; try discriminate H; try (left; split; [reflexivity|exact H]).
    right. intros chs. apply String.eqb_eq in H. subst field. apply String.eqb_neq in Hne. cbn. rewrite Hne. eauto.
  Qed.

  Lemma owner_is_false : forall a, owner s <> Some a -> owner_is state owner s a = false.
  Proof.
    intros a Hne. unfold owner_is. destruct (owner s) as [o|]; [|reflexivity].
    apply String.eqb_neq. congruence.
  Qed.

  Lemma prefix_guard_owner_rejects : forall signer sk,
    prefix_guard_owner signer sk = true -> owner s <> Some (msg signer) -> fails sk.
  Proof.
    intros signer sk Hg Hne. revert sk Hg. apply quiet_prefix_fails; [reflexivity|]. intros st r H.
    destruct st; try discriminate H; try (left; split; [reflexivity|exact H]);
      right; intros chs; apply String.eqb_eq in H; subst field; cbn; rewrite (owner_is_false _ Hne); eauto.
  Qed.

  Lemma strict_prefix_split : forall signer sk, strict_prefix_guard_authority signer sk = true ->
    exists pre r, sk = (pre ++ SGuardAuthority signer :: r)%list /\
      forall chs, run_skel owner sk msg auth s chs =
                  if String.eqb (msg signer) auth then run_skel owner r msg auth s chs else (Err Unauthorized, s).
  Proof.
    intros signer sk. induction sk as [|st r IH]; intros Hg; [discriminate|].
    destruct st; try discriminate Hg.
    1, 2: destruct (IH Hg) as (pre & r' & -> & E); eexists (_ :: pre), r'; split; [reflexivity|exact E].
    apply String.eqb_eq in Hg. subst field. exists [], r. split; reflexivity.
  Qed.
End Sem.

Definition names (l : list handler) : list string := map h_name l.

(* stated as "the list of offenders is empty" so that a failure prints the offenders *)
Lemma unguarded_none :
  names (filter (fun h => negb (guarded h)) (filter gov_only handlers)) = [].
Proof. vm_compute. reflexivity. Qed.

Lemma authority_not_signer_none :
  names (filter (fun h => negb (authority_is_signer h)) (filter h_has_authority handlers)) = [].
Proof. vm_compute. reflexivity. Qed.

Lemma owner_unguarded_none :
  names (filter (fun h => negb (owner_guarded h)) (filter owner_scoped handlers)) = [].
Proof. vm_compute. reflexivity. Qed.

Lemma owner_spec_missing_none :
  filter (fun n => negb (existsb (fun h => String.eqb (h_name h) n) handlers)) owner_spec = [].
Proof. vm_compute. reflexivity. Qed.

Lemma table_nonempty : negb (Nat.leb (length (filter gov_only handlers)) 20) = true.
Proof. vm_compute. reflexivity. Qed.

Lemma guard_dominates : forallb guarded (filter gov_only handlers) = true.
Proof. apply forallb_filter_nil. exact (map_eq_nil _ _ unguarded_none). Qed.

Lemma authority_is_signer_all : forallb authority_is_signer (filter h_has_authority handlers) = true.
Proof. apply forallb_filter_nil. exact (map_eq_nil _ _ authority_not_signer_none). Qed.

Lemma owner_guard_dominates : forallb owner_guarded (filter owner_scoped handlers) = true.
Proof. apply forallb_filter_nil. exact (map_eq_nil _ _ owner_unguarded_none). Qed.

Lemma rejects : forall h, In h handlers -> gov_only h = true ->
  forall (state : Type) (owner : state -> option string) (msg : message) (auth : string) (s : state)
         (chs : list (choice state)),
    msg (h_signer h) <> auth ->
    exists c, run_handler owner h msg auth s chs = (Err c, s).
Proof.
  intros h Hin Hgov state owner msg auth s chs Hne.
  pose proof (in_filtered gov_only guarded handlers h guard_dominates Hin Hgov) as Hg.
  apply andb_true_iff in Hg. exact (prefix_guard_authority_rejects state owner msg auth s _ _ (proj2 Hg) Hne chs).
Qed.
