(* C09, Models/PerpBacking.v: reserve >= total custody per asset at every transaction / block boundary, and the history
   that breaks it when the items of MsgClosePositions have no cache context of their own. *)
From Coq Require Import ZArith List Bool Lia.
From Elys Require Import Base.Res Base.ResFacts Base.ListFacts Base.Fn Models.PerpBacking.
Import ListNotations.
Open Scope Z_scope.

(* GetFundingDistributionValue with start block = current block returns zero on every branch *)
Lemma fdv_now fs cur : fdv fs cur cur = (0, 0).
Proof.
  unfold fdv. rewrite Z.eqb_refl. cbn [negb]. rewrite andb_false_r.
  destruct (fs_has fs cur); reflexivity.
Qed.

Lemma fund_dist_zero sd fs cur share price : fund_dist sd fs cur share price = 0.
Proof.
  unfold fund_dist. rewrite fdv_now. destruct sd; cbn [Z.eqb]; rewrite orb_true_r; reflexivity.
Qed.

Section B.
Variable assets : list nat.

Definition Inv (s : bst) : Prop := forall d, In d assets -> tcu s d <= rsv s d.

Definition le_slack (s s' : bst) : Prop := forall d, rsv s d - tcu s d <= rsv s' d - tcu s' d.

Lemma le_slack_refl s : le_slack s s.
Proof. intros d. lia. Qed.
Lemma le_slack_trans a b c : le_slack a b -> le_slack b c -> le_slack a c.
Proof. intros H1 H2 d. specialize (H1 d). specialize (H2 d). lia. Qed.
Lemma le_slack_inv s s' : Inv s -> le_slack s s' -> Inv s'.
Proof. intros HI HS d Hd. specialize (HI d Hd). specialize (HS d). lia. Qed.

Lemma backed_b_inv s : backed_b assets s = true -> Inv s.
Proof.
  unfold backed_b, Inv. intros H d Hd. rewrite forallb_forall in H. specialize (H d Hd). apply Z.leb_le in H. exact H.
Qed.
Lemma inv_backed_b s : Inv s -> backed_b assets s = true.
Proof.
  unfold backed_b, Inv. intros H. apply forallb_forall. intros d Hd. apply Z.leb_le. auto.
Qed.

Lemma mrun_app s a b : mrun assets s (a ++ b) = (do s1 <- mrun assets s a; mrun assets s1 b).
Proof.
  revert s. induction a as [|m r IH]; intros s; cbn; [reflexivity|].
  destruct (mstep assets s m); cbn; auto.
Qed.

Lemma mstep_check s hl s' : mstep assets s (MCheck hl) = Ok s' -> s' = s /\ Inv s.
Proof.
  cbn. destruct hl; [discriminate|]. destruct (backed_b assets s) eqn:E; [|discriminate].
  intros H. inversion H; subst. split; [reflexivity|apply backed_b_inv; exact E].
Qed.

Lemma mrun_check_end l s hl s' : mrun assets s (l ++ [MCheck hl]) = Ok s' -> Inv s'.
Proof.
  rewrite mrun_app. intros H. apply bind_ok in H as (s1 & _ & H). cbn [mrun] in H.
  apply bind_ok in H as (s2 & E & H). injection H as <-. apply mstep_check in E as [-> HI]. exact HI.
Qed.

Lemma mout_ok s d a s' : mstep assets s (MOut d a) = Ok s' <->
  0 <= a <= rsv s d /\ s' = mkB (upd (rsv s) d (rsv s d - a)) (lcu s) (scu s) (lco s) (sli s).
Proof.
  cbn [mstep]. destruct (Z.ltb_spec a 0); [split; [discriminate|lia]|].
  destruct (Z.ltb_spec (rsv s d - a) 0); [split; [discriminate|lia]|].
  split; [intros [= <-]; split; [lia|reflexivity]|intros [_ ->]; reflexivity].
Qed.

(* what a move adds to the slack of asset [x]; the funding distribution adds nothing ([fund_dist_zero]) *)
Definition dslack (m : mv) (x : nat) : Z :=
  match m with
  | MIn d a => if Nat.eqb x d then a else 0
  | MOut d a | MCust _ d a => if Nat.eqb x d then - a else 0
  | _ => 0
  end.

(* what a successful move says about its own argument *)
Definition mok (m : mv) : Prop :=
  match m with MIn _ a | MOut _ a => 0 <= a | MGuard ok => ok = true | _ => True end.

Lemma mstep_slack s m s' : mstep assets s m = Ok s' ->
  mok m /\ forall x, rsv s' x - tcu s' x = rsv s x - tcu s x + dslack m x.
Proof.
  destruct m as [d a|d a|sd d a|d a|d a|sd d fs cur share price|hl|ok]; cbn [mstep mok dslack]; intros H.
  - destruct (Z.ltb_spec a 0); [discriminate|]. injection H as <-. split; [assumption|].
    intros x. unfold tcu. cbn. rewrite upd_add. lia.
  - apply mout_ok in H as (A & ->). split; [apply A|]. intros x. unfold tcu, Z.sub. cbn. rewrite upd_add. lia.
  - injection H as <-. split; [exact I|]. intros x. unfold tcu. destruct sd; cbn; rewrite upd_add; destruct (Nat.eqb x d); lia.
  - injection H as <-. split; [exact I|]. intros x. unfold tcu. cbn. lia.
  - injection H as <-. split; [exact I|]. intros x. unfold tcu. cbn. lia.
  - destruct (side_oi assets s sd =? 0); [discriminate|]. rewrite fund_dist_zero in H. injection H as <-.
    split; [exact I|]. intros x. unfold tcu. destruct sd; cbn; rewrite upd_add; destruct (Nat.eqb x d); lia.
  - apply mstep_check in H as [-> _]. split; [exact I|]. intros x. lia.
  - destruct ok; [|discriminate]. injection H as <-. split; [reflexivity|]. intros x. lia.
Qed.

Lemma mrun_slack l : forall s s', mrun assets s l = Ok s' ->
  Forall mok l /\ forall x, rsv s' x - tcu s' x = rsv s x - tcu s x + zsum (map (fun m => dslack m x) l).
Proof.
  induction l as [|m r IH]; intros s s' H; cbn in H.
  - injection H as <-. split; [constructor|]. intros x. cbn. lia.
  - apply bind_ok in H as (s1 & E & H). destruct (mstep_slack _ _ _ E) as (Hm & E1). destruct (IH _ _ H) as (Hr & E2).
    split; [constructor; assumption|]. intros x. cbn. rewrite E2, E1. lia.
Qed.

Lemma mstep_in s d a s' : mstep assets s (MIn d a) = Ok s' -> le_slack s s'.
Proof. intros H x. destruct (mstep_slack _ _ _ H) as (A & ->). cbn in *. destruct (Nat.eqb x d); lia. Qed.

Definition gains (l : list mv) : Prop := Forall mok l -> forall x, 0 <= zsum (map (fun m => dslack m x) l).

Lemma gains_slack l s s' : gains l -> mrun assets s l = Ok s' -> le_slack s s'.
Proof. intros G H x. destruct (mrun_slack l s s' H) as (Hok & ->). specialize (G Hok x). lia. Qed.

Lemma gains_app a b : gains a -> gains b -> gains (a ++ b).
Proof.
  intros Ga Gb H x. apply Forall_app in H as [Ha Hb]. rewrite map_app, zsum_app.
  specialize (Ga Ha x). specialize (Gb Hb x). lia.
Qed.

(* interest + funding settlement of one position: the two transfers and the custody reduction cancel *)
Lemma gains_settle it : gains (int_out it ++ fund_moves it).
Proof.
  intros _ x. unfold int_out, fund_moves. destruct (si_ftake it >? 0) eqn:EF; cbn; destruct (Nat.eqb x (si_d it)); lia.
Qed.

(* Repay: what leaves the pool is closing custody - repay amount, never more than the closing custody *)
Lemma gains_repay it : gains (repay_moves it).
Proof.
  unfold repay_moves. destruct (si_close it) as [[cc rp]|]; [|intros _ x; cbn; lia].
  intros H x. apply Forall_inv in H. cbn [mok] in H. apply negb_true_iff, orb_false_iff in H as [Hcc Hrp].
  apply Z.ltb_ge in Hcc, Hrp.
  assert (Htail : zsum (map (fun m => dslack m x)
      (match si_side it with Long => [MColl (si_dcoll it) (- si_coll it)] | Short => [MSLiab (si_dliab it) (- si_liab it)] end)) = 0)
    by (destruct (si_side it); reflexivity).
  rewrite !map_app, !zsum_app, Htail. destruct (cc <? rp) eqn:E; [|apply Z.ltb_ge in E].
  - cbn. destruct (Nat.eqb x (si_d it)); lia.
  - destruct (cc - rp >? 0); cbn; destruct (Nat.eqb x (si_d it)); lia.
Qed.

Lemma gains_item it : gains (item_moves it).
Proof.
  unfold item_moves. apply gains_app; [|apply gains_repay]. destruct (si_settle it); [apply gains_settle|intros _ x; cbn; lia].
Qed.

Lemma hstep_inv s h s' : Inv s -> hstep assets s h = Ok s' -> Inv s'.
Proof.
  intros HI. destruct h as [ds inner hl|sd dcoll coll dcust cust dliab liab cns hl0 hl1|it]; cbn [hstep hmoves].
  - intros H. apply bind_ok in H as (s1 & _ & H). apply mstep_check in H as [-> H]. exact H.
  - rewrite !app_assoc. apply mrun_check_end.
  - intros H. exact (le_slack_inv s s' HI (gains_slack _ s s' (gains_item it) H)).
Qed.

Lemma utx_inv s l : Inv s -> Inv (run_tx (fun x => hrun assets x l) s).
Proof.
  apply (run_tx_rel (fun s s' => Inv s -> Inv s')); [auto|]. intros s' H HI. revert HI H.
  apply (steps_inv Inv (fun _ => True) (hstep assets) (hrun assets) (fun _ => eq_refl) (fun _ _ _ => eq_refl)).
  - intros s1 h s2 _. apply hstep_inv.
  - apply Forall_all. auto.
Qed.

Lemma item_atomic_slack s it : le_slack s (item_atomic assets s it).
Proof.
  apply (run_tx_rel le_slack); [apply le_slack_refl|]. intros s' H. exact (gains_slack _ s s' (gains_item it) H).
Qed.

Lemma item_atomic_inv s it : Inv s -> Inv (item_atomic assets s it).
Proof. intros HI. exact (le_slack_inv _ _ HI (item_atomic_slack s it)). Qed.

Lemma item_asis_slack s it : item_aborts assets s it = false -> le_slack s (item_asis assets s it).
Proof.
  (* transfers out of [si_d it] that sum to nothing positive have moved nothing *)
  assert (Hz : forall s' c,
    (forall x, rsv s' x - tcu s' x = rsv s x - tcu s x + if Nat.eqb x (si_d it) then - c else 0) ->
    (c >? 0) = false -> le_slack s s').
  { intros s' c E Hc x. rewrite Z.gtb_ltb in Hc. apply Z.ltb_ge in Hc. rewrite E. destruct (Nat.eqb x (si_d it)); lia. }
  unfold item_aborts, item_asis. destruct (si_settle it); cbn [andb].
  - destruct (mstep assets s (MOut (si_d it) (si_take it))) as [s1| |] eqn:E1; [|intros _; apply le_slack_refl..].
    destruct (mstep_slack _ _ _ E1) as (A1 & S1). cbn [mok dslack] in A1, S1.
    destruct (mstep assets s1 (MOut (si_d it) (si_rev it))) as [s2| |] eqn:E2; [|exact (Hz s1 _ S1)..].
    destruct (mstep_slack _ _ _ E2) as (A2 & S2). cbn [mok dslack] in A2, S2.
    assert (S12 : forall x, rsv s2 x - tcu s2 x = rsv s x - tcu s x + if Nat.eqb x (si_d it) then - (si_take it + si_rev it) else 0).
    { intros x. rewrite S2, S1. destruct (Nat.eqb x (si_d it)); lia. }
    destruct (mrun assets s2 (fund_moves it)) as [s3| |] eqn:E3; cbn [is_ok negb andb]; [|exact (Hz s2 _ S12)..].
    intros _.
    assert (H3 : le_slack s s3).
    { apply (gains_slack _ s s3 (gains_settle it)). unfold int_out. cbn [app mrun]. rewrite E1. cbn [bind]. rewrite E2. exact E3. }
    destruct (mrun assets s3 (repay_moves it)) as [s4| |] eqn:E4; [|exact H3..].
    exact (le_slack_trans _ _ _ H3 (gains_slack _ s3 s4 (gains_repay it) E4)).
  - intros _. destruct (mrun assets s (repay_moves it)) as [s1| |] eqn:E; [|apply le_slack_refl..].
    exact (gains_slack _ s s1 (gains_repay it) E).
Qed.

Lemma items_asis_slack l : forall s, abort_free_items assets s l = true -> le_slack s (fold_left (item_asis assets) l s).
Proof.
  induction l as [|it r IH]; intros s H; cbn in *; [apply le_slack_refl|].
  apply andb_true_iff in H as [H1 H2]. apply negb_true_iff in H1.
  exact (le_slack_trans _ _ _ (item_asis_slack s it H1) (IH _ H2)).
Qed.

(* every history, when each ClosePositions item is all-or-nothing (its own cache context) *)
Theorem brun_atomic_inv h : forall s, Inv s -> Inv (brun item_atomic assets s h).
Proof.
  intros s. apply (fold_inv Inv (fun _ => True) (ustep item_atomic assets)); [|apply Forall_all; auto].
  intros s1 [l|l] _; cbn [ustep]; [apply utx_inv|].
  apply (fold_inv Inv (fun _ => True) (item_atomic assets)); [|apply Forall_all; auto]. intros s2 it _. apply item_atomic_inv.
Qed.

(* items run on the message's own context, errors only logged: every history in which no item leaves a transfer behind *)
Theorem brun_asis_inv h : forall s, Inv s -> abort_free assets s h = true -> Inv (brun item_asis assets s h).
Proof.
  induction h as [|u r IH]; intros s HI; cbn; auto.
  intros H. apply andb_true_iff in H as [H1 H2]. apply IH; [|exact H2].
  destruct u as [l|l]; cbn [ustep]; [apply utx_inv; exact HI|exact (le_slack_inv _ _ HI (items_asis_slack l s H1))].
Qed.

End B.

Lemma b_empty_inv assets : Inv assets b_empty.
Proof. intros d _. cbn. lia. Qed.

(* REFUTATION for items without a cache context: join 7000 of asset 1; long with collateral 5000 and custody 6000 of asset 1; exit 6000
   (reserve = custody = 6000, accepted by the hook check); then one MsgClosePositions liquidation item whose interest (4 + 37)
   and funding take (959) bring the long custody down to the collateral: open interest 0, FundingFeeDistribution fails,
   the 41 stay transferred and the custody stays 6000 > reserve 5959. *)
Definition fs_none : fstore := mkFS (fun _ => false) (fun _ => 0) (fun _ => 0) 0.
Definition refute_item : sitem :=
  mkSI true Long 1%nat 4 37 959 fs_none 10 1000000000000000000 5000000000000000000 None 1%nat 0 0%nat 0.
Definition refute_history : list bunit :=
  [UTx [HAmm [(1%nat, 7000)] None false];
   UTx [HOpen Long 1%nat 5000 1%nat 6000 0%nat 0 None false false];
   UTx [HAmm [(1%nat, -6000)] None false];
   UClosePositions [refute_item]].

Lemma refute_history_atomic_backed :
  backed_b [0%nat; 1%nat] (brun item_atomic [0%nat; 1%nat] b_empty refute_history) = true.
Proof. vm_compute. reflexivity. Qed.
