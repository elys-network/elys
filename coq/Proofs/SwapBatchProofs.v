(* Proofs about the batch loop, the queue and the handlers of Models/SwapQueue.v (C04); the coded selection meets what
   the batch loop is proved under. *)
From Coq Require Import List Bool Arith Lia.
From Elys Require Import Base.Res Base.ResFacts Models.SwapQueue.
Import ListNotations.
Open Scope Z_scope.

Definition idx_of (v : ev) : nat := r_idx (ev_req v).

(* every deletion either wrote the cache context of a successful settlement, or left the bank untouched *)
Definition ev_ok (coded : bool) (e : env) (v : ev) : Prop :=
  if ev_applied v then settle_gen coded e (ev_before v) (ev_req v) (ev_choice v) = Ok (ev_after v)
  else ev_after v = ev_before v.

Fixpoint chain (b : bank) (evs : list ev) (b' : bank) : Prop :=
  match evs with
  | [] => b' = b
  | v :: r => ev_before v = b /\ chain (ev_after v) r b'
  end.

Lemma chain_app b evs1 b1 evs2 b2 : chain b evs1 b1 -> chain b1 evs2 b2 -> chain b (evs1 ++ evs2) b2.
Proof.
  revert b. induction evs1 as [|v r IH]; intros b C1 C2; cbn in *.
  - subst. exact C2.
  - destruct C1 as (E & C1). split; [exact E|]. apply IH; assumption.
Qed.

Lemma del_In m q x : In x (del m q) <-> In x q /\ r_idx x <> r_idx m.
Proof.
  unfold del. rewrite filter_In, negb_true_iff, Nat.eqb_neq. reflexivity.
Qed.

Lemma filter_len_le {A} (f : A -> bool) l : (length (filter f l) <= length l)%nat.
Proof. induction l as [|x r IH]; cbn; [lia|]. destruct (f x); cbn; lia. Qed.

Lemma del_len_le m q : (length (del m q) <= length q)%nat.
Proof. apply filter_len_le. Qed.

Lemma del_len_lt m q : In m q -> (length (del m q) < length q)%nat.
Proof.
  unfold del. induction q as [|x r IH]; intros H; [destruct H|]. cbn.
  destruct H as [->|H].
  - rewrite Nat.eqb_refl. cbn. pose proof (filter_len_le (fun x => negb (Nat.eqb (r_idx x) (r_idx m))) r). lia.
  - specialize (IH H). destruct (negb _); cbn; lia.
Qed.

Lemma nodup_idx_inj q x y : NoDup (map r_idx q) -> In x q -> In y q -> r_idx x = r_idx y -> x = y.
Proof.
  induction q as [|z r IH]; intros ND Hx Hy E; [destruct Hx|].
  inversion ND as [|? ? Hz NDr]; subst.
  destruct Hx as [->|Hx]; destruct Hy as [->|Hy]; try reflexivity.
  - exfalso. apply Hz. rewrite E. apply in_map. exact Hy.
  - exfalso. apply Hz. rewrite <- E. apply in_map. exact Hx.
  - apply IH; assumption.
Qed.

Section BatchProofs.
  Variable e : env.
  Variable coded : bool.
  Variable sel1 : list req -> option req.
  Variable sel2 : list req -> req -> option req.
  Variable ch : nat -> bool -> req -> choice.
  Variable lt : nat -> bool.
  (* what the selection may be: any function that picks stored requests, and finds one while any is left *)
  Hypothesis sel1_in : forall q m, sel1 q = Some m -> In m q.
  Hypothesis sel1_none : forall q, sel1 q = None -> q = [].
  Hypothesis sel2_in : forall q m m2, sel2 q m = Some m2 -> In m2 q.

  Notation iter := (iter e coded sel1 sel2 ch lt).
  Notation loop := (loop e coded sel1 sel2 ch lt).

  (* the four outcomes of an iteration come in two shapes: one stored request is deleted, settled or not, or two
     are deleted and neither is settled *)
  Inductive iter_res (q : list req) (b : bank) : list req * bank * list ev -> Prop :=
  | One m a c b1 : In m q -> ev_ok coded e (mkEv m a b b1 c) -> iter_res q b (del m q, b1, [mkEv m a b b1 c])
  | Two m1 m2 c1 c2 : In m1 q -> In m2 q ->
      iter_res q b (del m2 (del m1 q), b, [mkEv m1 false b b c1; mkEv m2 false b b c2]).

  Lemma iter_cases n q b : match iter n q b with Some r => iter_res q b r | None => sel1 q = None end.
  Proof.
    unfold SwapQueue.iter. destruct (sel1 q) as [m1|] eqn:S1; [|reflexivity].
    pose proof (sel1_in _ _ S1) as I1.
    destruct (sel2 q m1) as [m2|] eqn:S2; [pose proof (sel2_in _ _ _ S2) as I2|];
      destruct (settle_gen coded e b m1 _) eqn:E1; try destruct (settle_gen coded e b m2 _) eqn:E2; try destruct (lt n);
      first [apply One; [assumption|assumption || reflexivity] | apply Two; assumption].
  Qed.

  (* the fuel is never exhausted: every iteration deletes at least one stored request *)
  Lemma loop_fuel : forall fuel n q b tr, (length q < fuel)%nat -> loop fuel n q b tr <> None.
  Proof.
    induction fuel as [|f IH]; intros n q b tr L; [lia|]. cbn [SwapQueue.loop].
    pose proof (iter_cases n q b) as C. destruct (iter n q b) as [[[q1 b1] evs]|]; [|discriminate].
    apply IH. inversion C as [m a c b1' I _|m1 m2 c1 c2 I1 I2]; subst.
    - pose proof (del_len_lt m q I). lia.
    - pose proof (del_len_lt m1 q I1). pose proof (del_len_le m2 (del m1 q)). lia.
  Qed.

  Definition applied_idx (evs : list ev) : list nat := map idx_of (filter ev_applied evs).

  Lemma loop_spec : forall fuel n q b tr q' b' tr',
    loop fuel n q b tr = Some (q', b', tr') ->
    exists evs, tr' = tr ++ evs /\ q' = [] /\ chain b evs b' /\ Forall (ev_ok coded e) evs /\
      NoDup (applied_idx evs) /\ incl (map ev_req evs) q /\
      (forall x, In x q -> In (r_idx x) (map idx_of evs)).
  Proof.
    induction fuel as [|f IH]; intros n q b tr q' b' tr' H; [discriminate|].
    cbn [SwapQueue.loop] in H. pose proof (iter_cases n q b) as C.
    destruct (iter n q b) as [[[q1 b1] evs1]|].
    - inversion C as [m a c b1' I OK|m1 m2 c1 c2 I1 I2]; subst; apply IH in H;
        destruct H as (evs & -> & -> & Ch & F & ND & Q & D); rewrite <- app_assoc; eexists; (split; [reflexivity|]);
        (split; [reflexivity|]).
      + split; [split; [reflexivity|exact Ch]|]. split; [constructor; assumption|]. split; [|split].
        * unfold applied_idx. cbn [filter ev_applied]. destruct a; [|exact ND]. constructor; [|exact ND].
          intros Hin. apply in_map_iff in Hin. destruct Hin as (v & Ev & Hv).
          apply filter_In, proj1, (in_map ev_req), Q, del_In in Hv. apply Hv, Ev.
        * apply incl_cons; [exact I|]. eapply incl_tran; [exact Q|apply incl_filter].
        * intros x Hx. destruct (Nat.eq_dec (r_idx x) (r_idx m)) as [E|N]; [left; symmetry; exact E|].
          right. apply D, del_In. auto.
      + split; [repeat split; exact Ch|]. split; [repeat constructor; exact F|]. split; [exact ND|]. split.
        * repeat (apply incl_cons; [assumption|]). eapply incl_tran; [exact Q|]. eapply incl_tran; apply incl_filter.
        * intros x Hx. destruct (Nat.eq_dec (r_idx x) (r_idx m1)) as [E1|N1]; [left; symmetry; exact E1|].
          destruct (Nat.eq_dec (r_idx x) (r_idx m2)) as [E2|N2]; [right; left; symmetry; exact E2|].
          right. right. apply D. apply del_In. split; [apply del_In; auto|exact N2].
    - apply sel1_none in C. subst q. injection H as <- <- <-. exists []. rewrite app_nil_r.
      repeat split; try constructor; intros x [].
  Qed.

  Lemma exec_total q b : exec_requests e coded sel1 sel2 ch lt q b <> None.
  Proof. unfold exec_requests. apply loop_fuel. lia. Qed.

  (* amm EndBlocker + Commit *)
  Lemma end_block_spec s : NoDup (map r_idx (s_q s)) ->
    exists b' tr, end_block e coded sel1 sel2 ch lt s = Some (mkSt b' [] 0, tr) /\
      chain (s_bank s) tr b' /\ Forall (ev_ok coded e) tr /\
      NoDup (applied_idx tr) /\ (forall m, In m (s_q s) <-> In m (map ev_req tr)).
  Proof.
    intros ND. unfold end_block.
    destruct (exec_requests e coded sel1 sel2 ch lt (s_q s) (s_bank s)) as [[[q' b'] tr']|] eqn:E;
      [|exfalso; exact (exec_total _ _ E)].
    apply loop_spec in E. destruct E as (evs & -> & -> & C & F & NDa & Q & D). cbn [app].
    exists b', evs. repeat split; try assumption.
    - intros Hm. destruct (proj1 (in_map_iff _ _ _) (D m Hm)) as (v & Ev & Hv). apply (in_map ev_req) in Hv.
      rewrite (nodup_idx_inj _ m (ev_req v) ND); [exact Hv|exact Hm|exact (Q _ Hv)|symmetry; exact Ev].
    - exact (Q m).
  Qed.
End BatchProofs.

Definition run_tx1 (e : env) (s : st) (mc : msg * choice) : st :=
  match enqueue e s (fst mc) (snd mc) with Ok s' => s' | _ => s end.
Definition run_txs (e : env) (s : st) (l : list (msg * choice)) : st := fold_left (run_tx1 e) l s.

Lemma enqueue_spec e s m c s' : enqueue e s m c = Ok s' ->
  s_bank s' = s_bank s /\ s_q s' = s_q s ++ [msg_req m] /\ s_last s' = S (s_last s) /\ r_idx (msg_req m) = S (s_last s).
Proof.
  unfold enqueue. intros H. destruct (e_blocked e (r_rcpt (msg_req m))); [discriminate|].
  apply bind_ok in H. destruct H as (x & _ & H).
  destruct (Nat.eqb_spec (r_idx (msg_req m)) (S (s_last s))) as [E|]; [|discriminate].
  injection H as <-. auto.
Qed.

Definition block_inv (b : bank) (txs : list (msg * choice)) (s : st) : Prop :=
  s_bank s = b /\ map r_idx (s_q s) = seq 1 (s_last s) /\
  forall m, In m (s_q s) -> exists mc, In mc txs /\ m = msg_req (fst mc).

Lemma run_tx1_inv e b txs s mc : In mc txs -> block_inv b txs s -> block_inv b txs (run_tx1 e s mc).
Proof.
  intros I Inv. unfold run_tx1. destruct (enqueue e s (fst mc) (snd mc)) as [s'| |] eqn:E; try exact Inv.
  apply enqueue_spec in E. destruct E as (Eb & Eq & El & Ei). destruct Inv as (B & Q & M).
  split; [congruence|]. split.
  - rewrite Eq, El, map_app, Q, seq_S. cbn. rewrite Ei. reflexivity.
  - intros m. rewrite Eq, in_app_iff. intros [Hm|[<-|[]]]; [exact (M m Hm)|exists mc; auto].
Qed.

Lemma run_txs_inv e b txs : block_inv b txs (run_txs e (mkSt b [] 0) txs).
Proof.
  apply (fold_inv _ (fun mc => In mc txs) _ (run_tx1_inv e b txs)); [apply Forall_forall; auto|].
  repeat split. intros m [].
Qed.

(* the coded selection meets the hypotheses of BatchProofs on sel1, sel2 *)

Lemma min_key_in : forall l m, min_key l = Some m -> In m l.
Proof.
  induction l as [|x r IH]; intros m H; cbn in H; [discriminate|].
  destruct (min_key r) as [m'|] eqn:E.
  - destruct (key_ltb (r_key m') (r_key x)); inversion H; subst; [right; apply IH; reflexivity|left; reflexivity].
  - inversion H; left; reflexivity.
Qed.

Lemma min_key_none : forall l, min_key l = None -> l = [].
Proof.
  intros [|x r] H; [reflexivity|]. cbn in H. destruct (min_key r) as [m'|]; [destruct (key_ltb _ _)|]; discriminate.
Qed.

Lemma sel_first_in pfx q m : sel_first pfx q = Some m -> In m q.
Proof.
  unfold sel_first. destruct (min_key (filter _ q)) as [m'|] eqn:E1.
  - intros H; inversion H; subst. apply min_key_in in E1. apply filter_In in E1. tauto.
  - intros H. apply min_key_in in H. apply filter_In in H. tauto.
Qed.

Lemma sel1c_none q : sel1c q = None -> q = [].
Proof.
  unfold sel1c, sel_first. destruct (min_key (filter _ q)) as [m'|] eqn:E1; [discriminate|].
  intros E2. apply min_key_none in E1. apply min_key_none in E2.
  destruct q as [|x r]; [reflexivity|]. exfalso. cbn in E1, E2. rewrite !andb_true_r in *.
  destruct (is_in x); cbn in *; discriminate.
Qed.
