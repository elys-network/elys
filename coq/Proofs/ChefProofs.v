(* Proofs about Models/Chef.v (C13). The liabilities are kept exact, at scale 10^36 ([owed]); [slack] is what the
   module account holds beyond them and the unreleased incentive funding. Hooks, queries and claims leave it where it
   is or raise it ([Up]); funding an incentive raises the balance and the unreleased funding by the same amount; the
   end blocker's effect on it is computed stage by stage. *)
From Coq Require Import ZArith List Bool Lia.
From Elys Require Import Base.Res Base.Zdec Base.ResFacts Models.Chef.
Import ListNotations.
Open Scope Z_scope.

Lemma ONE_pos : 0 < ONE. Proof. reflexivity. Qed.

Lemma quot_ONE_bounds x : 0 <= x -> 0 <= Z.quot x ONE /\ Z.quot x ONE * ONE <= x.
Proof. intros H. destruct (trunc_int_bounds x H) as (A & _ & B). split; assumption. Qed.

Lemma portion_dec_exact a p : portion_dec a p = a * p.
Proof.
  unfold portion_dec, dmul_trunc, dec_of_int. replace (a * PREC * p) with (a * p * PREC) by ring.
  apply trunc_int_mult.
Qed.

Lemma addc_eq f d a x : addc f d a x = f x + (if Nat.eqb x d then a else 0).
Proof. unfold addc. destruct (Nat.eqb x d); lia. Qed.

Lemma coin_amt_cons d a r x : coin_amt ((d, a) :: r) x = (if Nat.eqb x d then a else 0) + coin_amt r x.
Proof. unfold coin_amt. cbn [fold_right]. rewrite (Nat.eqb_sym x d). destruct (Nat.eqb d x); lia. Qed.

Lemma trunc_dec_eq x : trunc_dec x = trunc_int x * PREC.
Proof. reflexivity. Qed.

Lemma portion_coin_bounds a p : 0 <= a -> 0 <= p <= PREC -> 0 <= portion_coin a p <= a.
Proof.
  intros Ha Hp. unfold portion_coin, round_int, dec_of_int. rewrite dmul_int_l.
  split; [apply chop_round_bounds; nia|]. rewrite <- (chop_round_mult a) at 2. apply chop_round_mono. nia.
Qed.

Lemma sumn_le n f g : (forall i, (i < n)%nat -> f i <= g i) -> sumn n f <= sumn n g.
Proof.
  induction n as [|m IH]; intros H; cbn; [lia|].
  specialize (IH (fun i Hi => H i (Nat.lt_lt_succ_r _ _ Hi))). specialize (H m (Nat.lt_succ_diag_r m)). lia.
Qed.

Lemma sumn_ext n f g : (forall i, (i < n)%nat -> f i = g i) -> sumn n f = sumn n g.
Proof. intros H. apply Z.le_antisymm; apply sumn_le; intros i Hi; rewrite (H i Hi); lia. Qed.

Lemma sumn_add n f g : sumn n (fun i => f i + g i) = sumn n f + sumn n g.
Proof. induction n as [|m IH]; cbn; [reflexivity|]. rewrite IH. ring. Qed.

Lemma sumn_scale n c f : sumn n (fun i => c * f i) = c * sumn n f.
Proof. induction n as [|m IH]; cbn; [ring|]. rewrite IH. ring. Qed.

Lemma sumn_zero n f : (forall i, (i < n)%nat -> f i = 0) -> sumn n f = 0.
Proof.
  induction n as [|m IH]; intros H; cbn; [reflexivity|].
  rewrite IH by (intros i Hi; apply H; lia). rewrite H by lia. reflexivity.
Qed.

Lemma sumn_nonneg n f : (forall i, (i < n)%nat -> 0 <= f i) -> 0 <= sumn n f.
Proof. intros H. rewrite <- (sumn_zero n (fun _ => 0)) by reflexivity. apply sumn_le. exact H. Qed.

Lemma sumn_point n f g k x : (k < n)%nat -> g k = f k - x -> (forall i, i <> k -> g i = f i) ->
  sumn n g = sumn n f - x.
Proof.
  induction n as [|m IH]; intros Hk Hg Ho; [lia|]. cbn.
  destruct (Nat.eq_dec k m) as [->|Ne].
  - rewrite Hg. rewrite (sumn_ext m g f); [lia|]. intros i Hi. apply Ho. lia.
  - rewrite (Ho m) by lia. rewrite IH by (try lia; assumption). lia.
Qed.

(* sums over a list, in the form the model writes them ([sum_ptvl], [reserved]) *)
Definition lsum {A} (f : A -> Z) (l : list A) : Z := fold_right (fun x acc => f x + acc) 0 l.

Lemma lsum_cons {A} (f : A -> Z) x l : lsum f (x :: l) = f x + lsum f l.
Proof. reflexivity. Qed.

Lemma lsum_le {A} (f g : A -> Z) l : (forall x, In x l -> f x <= g x) -> lsum f l <= lsum g l.
Proof.
  induction l as [|x r IH]; intros H; [reflexivity|]. rewrite !lsum_cons.
  specialize (IH (fun y Hy => H y (or_intror Hy))). specialize (H x (or_introl eq_refl)). lia.
Qed.

Lemma lsum_zero {A} (f : A -> Z) l : (forall x, In x l -> f x = 0) -> lsum f l = 0.
Proof.
  induction l as [|x r IH]; intros H; [reflexivity|].
  rewrite lsum_cons, IH, (H x (or_introl eq_refl)) by (intros y Hy; apply H; right; exact Hy). reflexivity.
Qed.

Lemma lsum_nonneg {A} (f : A -> Z) l : (forall x, In x l -> 0 <= f x) -> 0 <= lsum f l.
Proof. intros H. rewrite <- (lsum_zero (fun _ => 0) l) by reflexivity. apply lsum_le. exact H. Qed.

Lemma lsum_app {A} (f : A -> Z) l1 l2 : lsum f (l1 ++ l2) = lsum f l1 + lsum f l2.
Proof. induction l1 as [|x r IH]; [reflexivity|]. cbn [app]. rewrite !lsum_cons, IH. ring. Qed.

Lemma lsum_add {A} (f g : A -> Z) l : lsum (fun x => f x + g x) l = lsum f l + lsum g l.
Proof. induction l as [|x r IH]; [reflexivity|]. rewrite !lsum_cons, IH. ring. Qed.

Lemma lsum_scale {A} c (f : A -> Z) l : lsum (fun x => c * f x) l = c * lsum f l.
Proof. induction l as [|x r IH]; [cbn; ring|]. rewrite !lsum_cons, IH. ring. Qed.

Definition wf_params (P : params) : Prop :=
  0 <= p_lp P /\ 0 <= p_st P /\ p_lp P + p_st P <= PREC /\ 0 <= p_prov P <= PREC.

Record WF (s : state) : Prop := mkWF {
  w_bal : forall u p, 0 <= bal s u p;
  w_tot : forall p, sumn (nu s) (fun u => bal s u p) <= tot s p;
  w_acc : forall p d, 0 <= acc s p d;
  w_pend : forall u p d, 0 <= pend s u p d;
  w_debt : forall u p d, 0 <= debt s u p d <= acc s p d * bal s u p;
  w_rden : forall p d, is_rden s p d = false -> acc s p d = 0;
  w_incs : forall i, In i (incs s) -> 0 < i_amt i /\ i_from i < i_to i
}.

Lemma wf_init n m h : WF (init_state n m h).
Proof.
  constructor; cbn; intros; try lia; try contradiction.
  all: rewrite sumn_zero; [lia|reflexivity].
Qed.

Lemma wf_tot_nonneg s p : WF s -> 0 <= tot s p.
Proof.
  intros W. pose proof (w_tot s W p). pose proof (sumn_nonneg (nu s) (fun u => bal s u p) (fun i _ => w_bal s W i p)). lia.
Qed.

Lemma term_nonneg s d p u : WF s -> 0 <= term s d p u.
Proof. intros W. unfold term. pose proof (w_pend s W u p d). pose proof (w_debt s W u p d). pose proof ONE_pos. nia. Qed.

Lemma owed_nonneg s d : WF s -> 0 <= owed s d.
Proof. intros W. apply sumn_nonneg. intros p _. apply sumn_nonneg. intros u _. apply term_nonneg. exact W. Qed.

Lemma owed_le s s' d : nu s' = nu s -> np s' = np s ->
  (forall p u, term s' d p u <= term s d p u) -> owed s' d <= owed s d.
Proof.
  intros E1 E2 H. unfold owed. rewrite E1, E2. apply sumn_le. intros p _. apply sumn_le. intros u _. apply H.
Qed.

Lemma owed_pool s s' d p x : nu s' = nu s -> np s' = np s -> (p < np s)%nat ->
  sumn (nu s) (fun u => term s' d p u) = sumn (nu s) (fun u => term s d p u) - x ->
  (forall p' u, p' <> p -> term s' d p' u = term s d p' u) -> owed s' d = owed s d - x.
Proof.
  intros En Em Hp Hx Ho. unfold owed. rewrite En, Em. apply (sumn_point (np s) _ _ p x Hp Hx).
  intros p' Ne. apply sumn_ext. intros u _. apply Ho, Ne.
Qed.

Definition res_of (h : Z) (d : nat) (i : inc) : Z := if Nat.eqb (i_den i) d then i_amt i * inc_rem h i else 0.
Definition res_list (h : Z) (d : nat) (l : list inc) : Z := lsum (res_of h d) l.

Lemma reserved_res_list s d : reserved s d = res_list (height s) d (incs s).
Proof. reflexivity. Qed.

Lemma res_list_app h d l i : res_list h d (l ++ [i]) = res_list h d l + res_of h d i.
Proof. unfold res_list. rewrite lsum_app. cbn. lia. Qed.

Lemma reserved_nonneg s d : WF s -> 0 <= reserved s d.
Proof.
  intros W. apply (lsum_nonneg (res_of (height s) d)). intros i Hi. unfold res_of.
  destruct (w_incs s W i Hi) as [A _]. assert (0 <= inc_rem (height s) i) by apply Z.le_max_l.
  destruct (Nat.eqb (i_den i) d); nia.
Qed.

Definition slack (s : state) (d : nat) : Z := (chef s d - reserved s d) * (ONE * ONE) - owed s d.
Definition SOLV (s : state) : Prop := forall d, 0 <= slack s d.

Record Up (s s' : state) : Prop := mkUp {
  u_wf : WF s'; u_nu : nu s' = nu s; u_np : np s' = np s; u_slack : forall d, slack s d <= slack s' d }.

Lemma up_refl s : WF s -> Up s s.
Proof. intros W. constructor; auto. intros; lia. Qed.

Lemma up_trans a b c : Up a b -> Up b c -> Up a c.
Proof.
  intros [_ A2 A3 A4] [B1 B2 B3 B4]. constructor; try congruence.
  intros d. specialize (A4 d). specialize (B4 d). lia.
Qed.

Lemma up_solv s s' : Up s s' -> SOLV s -> SOLV s'.
Proof. intros U S d. specialize (S d). pose proof (u_slack _ _ U d). lia. Qed.

Lemma up_frame s s' : WF s' -> nu s' = nu s -> np s' = np s -> incs s' = incs s -> height s' = height s ->
  (forall d, owed s' d - owed s d <= (chef s' d - chef s d) * (ONE * ONE)) -> Up s s'.
Proof.
  intros W' En Em Ei Eh H. constructor; try assumption.
  intros d. specialize (H d). unfold slack, reserved. rewrite Ei, Eh. lia.
Qed.

(* what the hooks and the pending-reward query do: nobody's claimable reward changes *)
Definition Quiet (s s' : state) : Prop :=
  Up s s' /\ forall u p d, pending_total s' u p d = pending_total s u p d.

Lemma quiet_refl s : WF s -> Quiet s s.
Proof. intros W. split; [apply up_refl; exact W|reflexivity]. Qed.

Lemma quiet_trans a b c : Quiet a b -> Quiet b c -> Quiet a c.
Proof. intros [U1 P1] [U2 P2]. split; [eapply up_trans; eauto|]. intros. rewrite P2. apply P1. Qed.

Lemma checkpoint_fields s u p bold :
  nu (checkpoint s u p bold) = nu s /\ np (checkpoint s u p bold) = np s /\ chef (checkpoint s u p bold) = chef s /\
  acc (checkpoint s u p bold) = acc s /\ tot (checkpoint s u p bold) = tot s /\ bal (checkpoint s u p bold) = bal s /\
  xden (checkpoint s u p bold) = xden s /\ incs (checkpoint s u p bold) = incs s /\
  height (checkpoint s u p bold) = height s /\ nextid (checkpoint s u p bold) = nextid s.
Proof. repeat split. Qed.

Lemma is_rden_checkpoint s u p bold p' d : is_rden (checkpoint s u p bold) p' d = is_rden s p' d.
Proof. reflexivity. Qed.

(* s with other balances and totals; [rebal s (bal s) (tot s)] is s field by field *)
Definition rebal (s : state) (b : nat -> nat -> Z) (t : nat -> Z) : state :=
  mkS (nu s) (np s) (chef s) (acc s) t b (pend s) (debt s) (xden s) (incs s) (height s) (nextid s).

(* UpdateUserRewardPending + UpdateUserRewardDebt of (u, p) after any change of balances and totals that keeps
   them consistent and touches no other slot's balance. The pending grows by the truncated accrual on the balance
   before, the debt becomes exactly acc * balance, so the exact liability [term] does not grow and what a claim
   would pay stays. *)
Lemma checkpoint_spec s u p b t : WF s ->
  (forall u' p', 0 <= b u' p') -> (forall p', sumn (nu s) (fun u' => b u' p') <= t p') ->
  (forall u' p', u' <> u \/ p' <> p -> b u' p' = bal s u' p') ->
  Quiet s (checkpoint (rebal s b t) u p (bal s u p)).
Proof.
  intros W Hb Ht Ho. set (s' := checkpoint _ u p _).
  assert (K : forall u' p' d, 0 <= pend s' u' p' d /\ 0 <= debt s' u' p' d <= acc s p' d * b u' p' /\
                term s' d p' u' <= term s d p' u' /\ pending_total s' u' p' d = pending_total s u' p' d).
  { intros u' p' d. unfold term, pending_total. cbn [s' checkpoint rebal pend debt acc bal xden].
    unfold dquo_int, dmul_int, dec_of_int. rewrite dmul_int_r, (Z.mul_comm (b u p)).
    pose proof (w_pend s W u' p' d). pose proof (w_debt s W u' p' d). pose proof (w_acc s W p' d).
    pose proof (Hb u' p'). pose proof ONE_pos.
    destruct (Nat.eqb_spec u' u) as [->|Nu]; [destruct (Nat.eqb_spec p' p) as [->|Np]|]; cbn [andb].
    2,3: rewrite Ho by auto; repeat split; lia.
    change (is_rden (rebal s b t) p d) with (is_rden s p d). destruct (is_rden s p d) eqn:Rd.
    - destruct (quot_ONE_bounds (acc s p d * bal s u p - debt s u p d)) as [Q0 Q1]; [lia|].
      rewrite Z.sub_diag, Z.quot_0_l by discriminate. repeat split; nia.
    - rewrite (w_rden s W p d Rd) in *. replace (debt s u p d) with 0 by lia. rewrite !Z.mul_0_l.
      repeat split; lia. }
  split; [|intros; apply K]. apply up_frame; try reflexivity.
  - constructor; try apply W; try assumption; intros; apply K.
  - intros d. pose proof (owed_le s s' d eq_refl eq_refl (fun p' u' => proj1 (proj2 (proj2 (K u' p' d))))).
    change (chef s' d) with (chef s d). lia.
Qed.

Lemma checkpoint_quiet s u p : WF s -> Quiet s (checkpoint s u p (bal s u p)).
Proof. intros W. apply (checkpoint_spec s u p (bal s) (tot s) W); try apply W. reflexivity. Qed.

Lemma balchange_spec s u p b' t' :
  WF s -> (u < nu s)%nat -> 0 <= b' -> sumn (nu s) (fun u' => bal s u' p) - bal s u p + b' <= t' ->
  Quiet s (checkpoint (set_bal_tot s u p b' t') u p (bal s u p)).
Proof.
  intros W Hu Hb' Ht. apply (checkpoint_spec s u p _ _ W).
  - intros u' p'. destruct (_ && _); [exact Hb'|apply W].
  - intros p'. destruct (Nat.eqb_spec p' p) as [->|Ne].
    + rewrite (sumn_point (nu s) (fun u' => bal s u' p) _ u (bal s u p - b') Hu); [lia| |].
      * rewrite !Nat.eqb_refl. cbn. lia.
      * intros i Hi. destruct (Nat.eqb_spec i u); [contradiction|reflexivity].
    + rewrite (sumn_ext _ _ (fun u' => bal s u' p')); [apply W|]. intros i _. rewrite andb_false_r. reflexivity.
  - intros u' p' Hne. destruct (Nat.eqb_spec u' u) as [->|]; [destruct (Nat.eqb_spec p' p) as [->|]|]; cbn; try reflexivity.
    destruct Hne; contradiction.
Qed.

Lemma ltb_guard u n p m : negb ((u <? n)%nat && (p <? m)%nat) = false -> (u < n)%nat /\ (p < m)%nat.
Proof.
  intros H. apply negb_false_iff in H. apply andb_true_iff in H. destruct H as [A B].
  apply Nat.ltb_lt in A, B. split; assumption.
Qed.

Lemma deposit_spec s u p a s' : WF s -> deposit s u p a = Ok s' -> Quiet s s'.
Proof.
  intros W H. unfold deposit in H.
  destruct (negb _) eqn:G; [discriminate|]. apply ltb_guard in G. destruct G as [Hu Hp].
  destruct (Z.ltb_spec a 0) as [|A]; [discriminate|]. injection H as <-.
  cbn [set_bal_tot bal]. rewrite !Nat.eqb_refl. cbn [andb]. rewrite Z.add_simpl_r.
  pose proof (w_bal s W u p). pose proof (w_tot s W p). apply balchange_spec; try assumption; lia.
Qed.

Lemma withdraw_spec fx s u p a s' : WF s -> withdraw fx s u p a = Ok s' -> Quiet s s'.
Proof.
  intros W H. unfold withdraw in H.
  destruct (negb _) eqn:G; [discriminate|]. apply ltb_guard in G. destruct G as [Hu Hp].
  destruct (Z.ltb_spec a 0) as [|A]; [discriminate|]. destruct (Z.ltb_spec (bal s u p) a) as [|B]; [discriminate|].
  injection H as <-. cbn [set_bal_tot bal]. rewrite !Nat.eqb_refl. cbn [andb]. rewrite Z.sub_add.
  pose proof (w_tot s W p). apply balchange_spec; try assumption; [lia|]. destruct (fx_unc fx); lia.
Qed.

Lemma touch_spec s u s' : WF s -> touch s u = Ok s' -> Quiet s s'.
Proof.
  intros W H. unfold touch in H. destruct (negb _); [discriminate|]. injection H as <-.
  induction (np s) as [|m IH]; cbn [touch_pools]; [apply quiet_refl; exact W|].
  eapply quiet_trans; [exact IH|]. apply checkpoint_quiet, IH.
Qed.

Definition Payer (n m : nat) (f : state -> res state) : Prop :=
  forall s, WF s -> nu s = n -> np s = m -> match f s with Ok s' => Up s s' | _ => ~ SOLV s end.

Lemma payer_ok n m : Payer n m Ok.
Proof. intros s W _ _. apply up_refl, W. Qed.

Lemma payer_bind n m f g : Payer n m f -> Payer n m g -> Payer n m (fun s => bind (f s) g).
Proof.
  intros Hf Hg s W En Em. specialize (Hf s W En Em). destruct (f s) as [s1| |]; cbn [bind]; try exact Hf.
  specialize (Hg s1 (u_wf _ _ Hf) (eq_trans (u_nu _ _ Hf) En) (eq_trans (u_np _ _ Hf) Em)).
  destruct (g s1); [eapply up_trans; eauto|intros S; apply Hg; eapply up_solv; eauto..].
Qed.

(* one (pool, denom): the truncated pending leaves the account and the exact liability falls by the whole
   pending, so the state after the payment is no nearer to insolvency; in a solvent state it is solvent too,
   which is to say that the account held what was paid *)
Lemma claim_slot_payer n m u p d : (u < n)%nat -> (p < m)%nat -> Payer n m (fun s => claim_slot s u p d).
Proof.
  intros Hu Hp s W En Em. subst n m. unfold claim_slot. set (s' := mkS _ _ _ _ _ _ _ _ _ _ _ _).
  assert (U : Up s s').
  { pose proof ONE_pos. destruct (trunc_int_bounds (pend s u p d) (w_pend s W u p d)) as (_ & _ & T). fold ONE in T.
    assert (Hterm : forall d' p' u', term s' d' p' u' =
              term s d' p' u' - if Nat.eqb u' u && Nat.eqb p' p && Nat.eqb d' d then pend s u p d * ONE else 0).
    { intros d' p' u'. unfold term. cbn [s' pend acc bal debt].
      destruct (Nat.eqb_spec u' u) as [->|]; [destruct (Nat.eqb_spec p' p) as [->|]; [destruct (Nat.eqb_spec d' d) as [->|]|]|];
        cbn [andb]; lia. }
    apply up_frame; try reflexivity.
    - constructor; cbn [s' nu np chef acc tot bal pend debt xden incs height nextid]; try apply W.
      intros u' p' d'. destruct (_ && _); [lia|apply W].
    - intros d'. cbn [s' chef]. rewrite addc_eq.
      rewrite (owed_pool s s' d' p (if Nat.eqb d' d then pend s u p d * ONE else 0) eq_refl eq_refl Hp).
      + destruct (Nat.eqb d' d); nia.
      + apply (sumn_point (nu s) _ _ u _ Hu); [rewrite Hterm, !Nat.eqb_refl; reflexivity|].
        intros i Hi. rewrite Hterm. apply Nat.eqb_neq in Hi. rewrite Hi. cbn [andb]. lia.
      + intros p' u' Ne. rewrite Hterm. apply Nat.eqb_neq in Ne. rewrite Ne, andb_false_r. cbn [andb]. lia. }
  destruct (0 <? pend s u p d); [|apply up_refl, W].
  destruct (Z.ltb_spec (chef s d) (trunc_int (pend s u p d))) as [C|C]; [|exact U].
  intros S. pose proof (up_solv s s' U S d) as S'. unfold slack in S'. cbn [s' chef] in S'.
  rewrite addc_eq, Nat.eqb_refl in S'. pose proof (owed_nonneg s' d (u_wf _ _ U)).
  pose proof (reserved_nonneg s' d (u_wf _ _ U)). pose proof ONE_pos. nia.
Qed.

Lemma claim_slots_payer n m u p ds : (u < n)%nat -> (p < m)%nat -> Payer n m (fun s => claim_slots s u p ds).
Proof.
  intros Hu Hp. induction ds as [|d r IH]; [apply payer_ok|].
  exact (payer_bind n m _ _ (claim_slot_payer n m u p d Hu Hp) IH).
Qed.

Lemma claim_pool_payer n m u p : (u < n)%nat -> Payer n m (fun s => claim_pool s u p).
Proof.
  intros Hu s W En Em. unfold claim_pool. destruct (Nat.ltb_spec p (np s)) as [Pp|_]; [|apply up_refl, W].
  destruct (checkpoint_quiet s u p W) as [U1 _]. set (s1 := checkpoint s u p (bal s u p)) in *.
  pose proof (claim_slots_payer n m u p (rden_list s1 p) Hu ltac:(lia) s1 (u_wf _ _ U1) En Em) as F. cbv beta in F.
  destruct (claim_slots s1 u p _); [eapply up_trans; eauto|intros S; apply F; eapply up_solv; eauto..].
Qed.

Lemma claim_pools_payer n m u ps : (u < n)%nat -> Payer n m (fun s => claim_pools s u ps).
Proof.
  intros Hu. induction ps as [|p r IH]; [apply payer_ok|].
  exact (payer_bind n m _ _ (claim_pool_payer n m u p Hu) IH).
Qed.

Lemma claim_payer n m u ps : (u < n)%nat -> Payer n m (fun s => claim s u ps).
Proof.
  intros Hu s W En Em. unfold claim. destruct (Nat.ltb_spec u (nu s)); [|lia]. apply (claim_pools_payer n m u ps Hu s W En Em).
Qed.

Fixpoint claims (s : state) (cl : list (nat * list nat)) : res state :=
  match cl with [] => Ok s | (u, ps) :: r => do s1 <- claim s u ps; claims s1 r end.

Lemma claims_payer n m cl : (forall u ps, In (u, ps) cl -> (u < n)%nat) -> Payer n m (fun s => claims s cl).
Proof.
  induction cl as [|[u ps] r IH]; intros Hu; [apply payer_ok|].
  refine (payer_bind n m _ _ (claim_payer n m u ps (Hu u ps (or_introl eq_refl))) (IH _)).
  intros u' ps' Hin. apply (Hu u' ps'). right. exact Hin.
Qed.

Record SameBook (s s' : state) : Prop := mkSB {
  sb_nu : nu s' = nu s; sb_np : np s' = np s; sb_tot : tot s' = tot s; sb_bal : bal s' = bal s;
  sb_pend : pend s' = pend s; sb_debt : debt s' = debt s; sb_incs : incs s' = incs s;
  sb_h : height s' = height s; sb_id : nextid s' = nextid s }.

Lemma sb_refl s : SameBook s s. Proof. constructor; reflexivity. Qed.
Lemma sb_trans a b c : SameBook a b -> SameBook b c -> SameBook a c.
Proof. intros [] []. constructor; congruence. Qed.

Lemma sb_slack s s' d : SameBook s s' ->
  slack s' d - slack s d = (chef s' d - chef s d) * (ONE * ONE) - (owed s' d - owed s d).
Proof. intros SB. unfold slack, reserved. rewrite (sb_incs _ _ SB), (sb_h _ _ SB). ring. Qed.

Record ChefOnly (s s' : state) : Prop := mkCO { co_sb : SameBook s s'; co_acc : acc s' = acc s; co_xden : xden s' = xden s }.

Lemma co_refl s : ChefOnly s s. Proof. constructor; [apply sb_refl|reflexivity|reflexivity]. Qed.
Lemma co_trans a b c : ChefOnly a b -> ChefOnly b c -> ChefOnly a c.
Proof. intros [A1 A2 A3] [B1 B2 B3]. constructor; [eapply sb_trans; eauto|congruence|congruence]. Qed.
Lemma co_set_chef s f : ChefOnly s (set_chef s f).
Proof. constructor; [constructor|..]; reflexivity. Qed.

Lemma co_wf s s' : ChefOnly s s' -> WF s -> WF s'.
Proof.
  intros [[E1 E2 E3 E4 E5 E6 E7 E8 E9] Ea Ex] [A1 A2 A3 A4 A5 A6 A7].
  constructor; unfold is_rden in *; rewrite ?E1, ?E3, ?E4, ?E5, ?E6, ?E7, ?Ea, ?Ex; assumption.
Qed.

Lemma co_owed s s' d : ChefOnly s s' -> owed s' d = owed s d.
Proof. intros [[E1 E2 _ E4 E5 E6 _ _ _] Ea _]. unfold owed, term. rewrite E1, E2, E4, E5, E6, Ea. reflexivity. Qed.

(* what the crediting stages of the end blocker do: acc and xden change, and the liabilities rise by at most c d
   coins of each denom d *)
Record Credited (s s' : state) (c : nat -> Z) : Prop := mkCr {
  cr_sb : SameBook s s'; cr_chef : chef s' = chef s; cr_wf : WF s';
  cr_owed : forall d, owed s' d <= owed s d + c d * (ONE * ONE) }.

Lemma cred_refl s h : WF s -> (forall d, 0 <= h d) -> Credited s s h.
Proof. intros W H. constructor; [apply sb_refl|reflexivity|exact W|]. intros d. specialize (H d). pose proof ONE_pos. nia. Qed.

Lemma cred_trans a b c f g h : Credited a b f -> Credited b c g -> (forall d, f d + g d <= h d) -> Credited a c h.
Proof.
  intros [S1 C1 _ O1] [S2 C2 W2 O2] H. constructor; [eapply sb_trans; eauto|congruence|exact W2|].
  intros d. specialize (O1 d). specialize (O2 d). specialize (H d). pose proof ONE_pos. nia.
Qed.

Lemma credit_frame s p d c :
  SameBook s (credit s p d c) /\ chef (credit s p d c) = chef s /\ xden (credit s p d c) = xden s.
Proof. unfold credit. destruct (tot s p =? 0); repeat split. Qed.

(* UpdateAccPerShare adds c * 10^36 / total to the slot's accumulator, truncated: the pool's shares together
   are credited at most c *)
Lemma credit_acc s p d c : WF s -> 0 <= c ->
  exists dl, 0 <= dl /\ dl * tot s p <= c * (ONE * ONE) /\
    forall p' d', acc (credit s p d c) p' d' = acc s p' d' + (if Nat.eqb p' p && Nat.eqb d' d then dl else 0).
Proof.
  intros W Hc. unfold credit. destruct (tot s p =? 0) eqn:T.
  - exists 0. apply Z.eqb_eq in T. rewrite T.
    split; [lia|]. split; [pose proof ONE_pos; nia|]. intros. destruct (_ && _); lia.
  - apply Z.eqb_neq in T. pose proof (wf_tot_nonneg s p W).
    exists (dquo_int (dec_of_int (c * ONE)) (tot s p)). unfold dquo_int, dec_of_int. pose proof ONE_pos.
    assert (N : 0 <= c * ONE * PREC) by (unfold ONE in *; nia).
    rewrite Z.quot_div_nonneg by lia.
    split; [apply Z.div_pos; lia|]. split.
    + pose proof (Z.mul_div_le (c * ONE * PREC) (tot s p) ltac:(lia)). unfold ONE in *. lia.
    + intros p' d'. cbn [set_acc acc]. destruct (Nat.eqb p' p && Nat.eqb d' d); lia.
Qed.

(* a state that is [credit s p d c] up to its reward-denom lists is well-formed when the lists keep what
   they had and list d for p; the committed shares of the pool are at most its total, so it owes at most c more *)
Lemma credit_spec s p d c s2 h : WF s -> 0 <= c -> (p < np s)%nat ->
  SameBook s s2 -> chef s2 = chef s -> acc s2 = acc (credit s p d c) ->
  (forall p' d', is_rden s p' d' = true -> is_rden s2 p' d' = true) -> is_rden s2 p d = true ->
  (forall d', (if Nat.eqb d' d then c else 0) <= h d') -> Credited s s2 h.
Proof.
  intros W Hc Hp SB Ec Ea Hx Hd Hh. pose proof SB as [E1 E2 E3 E4 E5 E6 E7 E8 E9].
  destruct (credit_acc s p d c W Hc) as (dl & D0 & D1 & Da). constructor; try assumption.
  - destruct W as [A1 A2 A3 A4 A5 A6 A7]. constructor; rewrite ?E1, ?E3, ?E4, ?E5, ?E6, ?E7, ?Ea; try assumption.
    + intros p' d'. rewrite Da. specialize (A3 p' d'). destruct (_ && _); lia.
    + intros u' p' d'. rewrite Da. specialize (A5 u' p' d'). specialize (A1 u' p'). destruct (_ && _); nia.
    + intros p' d' R. rewrite Da, A6 by (destruct (is_rden s p' d') eqn:R2; [rewrite (Hx _ _ R2) in R; discriminate|reflexivity]).
      destruct (Nat.eqb_spec p' p) as [->|]; [destruct (Nat.eqb_spec d' d) as [->|]|]; cbn [andb]; [congruence|reflexivity..].
  - intros d'. set (x := if Nat.eqb d' d then dl else 0).
    assert (T : forall p' u, term s2 d' p' u = term s d' p' u + if Nat.eqb p' p then x * bal s u p else 0).
    { intros p' u. unfold term, x. rewrite E4, E5, E6, Ea, Da.
      destruct (Nat.eqb_spec p' p) as [->|]; destruct (Nat.eqb d' d); cbn [andb]; ring. }
    rewrite (owed_pool s s2 d' p (- (x * sumn (nu s) (fun u => bal s u p))) E1 E2 Hp).
    + pose proof (w_tot s W p). specialize (Hh d'). unfold x. destruct (Nat.eqb d' d); nia.
    + rewrite <- sumn_scale, Z.sub_opp_r, <- sumn_add. apply sumn_ext. intros u _. rewrite T, Nat.eqb_refl. reflexivity.
    + intros p' u Ne. rewrite T. apply Nat.eqb_neq in Ne. rewrite Ne. lia.
Qed.

Lemma wf_set_xden_same s : WF s -> forall xd, (forall p d, memn d (xd p) = memn d (xden s p)) -> WF (set_xden s xd).
Proof.
  intros [A1 A2 A3 A4 A5 A6 A7] xd H. constructor; try assumption.
  intros p d R. apply A6. unfold is_rden in *. cbn [set_xden xden] in R. rewrite H in R. exact R.
Qed.

Lemma pay_spec s d a s' : pay s d a = Ok s' ->
  ChefOnly s s' /\ forall d', chef s' d' = chef s d' - (if Nat.eqb d' d then a else 0).
Proof.
  unfold pay. destruct (chef s d <? a); [discriminate|]. intros H; injection H as <-.
  split; [apply co_set_chef|]. intros d'. cbn [set_chef chef]. rewrite addc_eq. destruct (Nat.eqb d' d); lia.
Qed.

Lemma pay_if_spec (b : bool) s d a s' : (if b then pay s d a else Ok s) = Ok s' ->
  ChefOnly s s' /\ (b = false -> s' = s).
Proof.
  destruct b; intros H; [split; [apply (pay_spec _ _ _ _ H)|discriminate]|].
  injection H as <-. split; [apply co_refl|reflexivity].
Qed.

Lemma pay_all_spec l : forall s s', pay_all s l = Ok s' ->
  ChefOnly s s' /\ forall d', chef s' d' = chef s d' - coin_amt l d'.
Proof.
  induction l as [|[d a] r IH]; intros s s' H; cbn [pay_all] in H.
  - injection H as <-. split; [apply co_refl|]. intros; cbn; lia.
  - apply bind_ok in H. destruct H as (s1 & E & H).
    destruct (pay_spec s d a s1 E) as [C1 F1]. destruct (IH s1 s' H) as [C2 F2].
    split; [eapply co_trans; eauto|]. intros d'. rewrite F2, F1, coin_amt_cons. lia.
Qed.

Lemma recv_all_spec l : forall s, ChefOnly s (recv_all s l) /\ forall d', chef (recv_all s l) d' = chef s d' + coin_amt l d'.
Proof.
  induction l as [|[d a] r IH]; intros s; cbn [recv_all].
  - split; [apply co_refl|]. intros; cbn; lia.
  - destruct (IH (set_chef s (addc (chef s) d a))) as [C F]. split; [eapply co_trans; [apply co_set_chef|exact C]|].
    intros d'. rewrite F, coin_amt_cons. cbn [set_chef chef]. rewrite addc_eq. lia.
Qed.

Lemma collect_gas_spec P s G s' gD : collect_gas P s G = (s', gD) ->
  ChefOnly s s' /\ gD = G * p_lp P /\ forall d, chef s' d = chef s d + (if Nat.eqb d USDC then trunc_int gD else 0).
Proof.
  unfold collect_gas. destruct (G =? 0) eqn:Z0; intros H; injection H as <- <-.
  - apply Z.eqb_eq in Z0. subst. split; [apply co_refl|]. split; [lia|]. intros d. destruct (Nat.eqb d USDC); cbn; lia.
  - split; [apply co_set_chef|]. split; [apply portion_dec_exact|]. intros d. apply addc_eq.
Qed.

(* only the LP portion comes in; as coded the stakers' and the provider portion then leave this account,
   repaired they leave the perpetual account *)
Lemma collect_perp_spec fx P s Q s' qD : collect_perp fx P s Q = Ok (s', qD) ->
  ChefOnly s s' /\ qD = Q * p_lp P /\
  (fx_perp fx = true -> forall d, chef s' d = chef s d + (if Nat.eqb d USDC then trunc_int qD else 0)).
Proof.
  unfold collect_perp. destruct (Q =? 0) eqn:Z0.
  - intros H; injection H as <- <-. apply Z.eqb_eq in Z0. subst Q.
    split; [apply co_refl|]. split; [reflexivity|]. intros _ d. destruct (Nat.eqb d USDC); cbn; lia.
  - destruct (_ <? 0); [discriminate|]. set (s1 := set_chef s _). intros H.
    apply bind_ok in H. destruct H as (s2 & E2 & H). apply pay_if_spec in E2. destruct E2 as [C2 S2].
    assert (T : ChefOnly s2 s' /\ qD = portion_dec Q (p_lp P) /\ (fx_perp fx = true -> s' = s2)).
    { destruct (0 <? trunc_int _); [destruct (_ <? 0); [discriminate|]|injection H as <- <-; auto using co_refl].
      apply bind_ok in H. destruct H as (s3 & E3 & H). injection H as <- <-.
      destruct (fx_perp fx); [injection E3 as <-; auto using co_refl|].
      split; [apply (pay_spec _ _ _ _ E3)|split; [reflexivity|discriminate]]. }
    destruct T as (C3 & -> & S3). split; [eapply co_trans; [apply co_set_chef|eapply co_trans; eauto]|].
    split; [apply portion_dec_exact|]. intros F d. rewrite (S3 F), S2 by (rewrite F; apply andb_false_r).
    apply addc_eq.
Qed.

Lemma split_bounds P a : wf_params P -> 0 <= a ->
  0 <= st_coin P a /\ 0 <= pr_coin P a /\ (a - st_coin P a - pr_coin P a) * PREC >= a * p_lp P.
Proof.
  intros (L0 & S0 & LS & _) Ha. unfold st_coin, pr_coin. rewrite !portion_dec_exact. unfold dec_of_int.
  destruct (trunc_int_bounds (a * p_st P) ltac:(nia)) as [A1 A2].
  destruct (trunc_int_bounds (a * PREC - a * p_lp P - a * p_st P) ltac:(nia)) as [B1 B2].
  split; [exact A1|]. split; [exact B1|]. lia.
Qed.

Definition keep (P : params) (rev : list (nat * Z)) (d : nat) : Z :=
  coin_amt rev d - coin_amt (map (fun '(d, a) => (d, st_coin P a)) rev) d - coin_amt (map (fun '(d, a) => (d, pr_coin P a)) rev) d.

Definition rev_ok (rev : list (nat * Z)) : Prop := forall d a, In (d, a) rev -> 0 <= a.

Lemma keep_bounds P rev d : wf_params P -> rev_ok rev ->
  0 <= keep P rev d /\ keep P rev d * PREC >= coin_amt rev d * p_lp P /\ 0 <= coin_amt rev d.
Proof.
  intros WP. unfold keep. induction rev as [|[d' a] r IH]; intros Hn; [cbn; lia|]. cbn [map]. rewrite !coin_amt_cons.
  destruct IH as (I1 & I2 & I3); [intros x y Hin; apply (Hn x y); right; exact Hin|].
  destruct (split_bounds P a WP (Hn d' a (or_introl eq_refl))) as (S1 & S2 & S3).
  pose proof (Hn d' a (or_introl eq_refl)). destruct WP as (L0 & _). pose proof PREC_pos.
  destruct (Nat.eqb d d'); [|lia]. split; [nia|]. split; nia.
Qed.

Lemma coin_amt_zero (f : Z -> Z) rev d : (forall d' a, In (d', a) rev -> 0 <= f a) ->
  existsb (fun '(_, a) => 0 <? a) (map (fun '(d, a) => (d, f a)) rev) = false ->
  coin_amt (map (fun '(d, a) => (d, f a)) rev) d = 0.
Proof.
  induction rev as [|[d' a] r IH]; intros Hn H; [reflexivity|]. cbn [map existsb] in *.
  apply orb_false_elim in H. destruct H as [H1 H2]. apply Z.ltb_ge in H1.
  pose proof (Hn d' a (or_introl eq_refl)). rewrite coin_amt_cons, IH; [destruct (Nat.eqb d d'); lia| |exact H2].
  intros x y Hin. apply (Hn x y). right. exact Hin.
Qed.

Lemma coin_amt_sub (f g : Z -> Z) (rev : list (nat * Z)) d :
  coin_amt (map (fun '(d, a) => (d, f a - g a)) rev) d =
  coin_amt (map (fun '(d, a) => (d, f a)) rev) d - coin_amt (map (fun '(d, a) => (d, g a)) rev) d.
Proof.
  induction rev as [|[d' a] r IH]; [reflexivity|]. cbn [map]. rewrite !coin_amt_cons, IH. destruct (Nat.eqb d d'); lia.
Qed.

Lemma pay_pos_spec s (f : Z -> Z) rev s' : let l := map (fun '(d, a) => (d, f a)) rev in
  (if existsb (fun '(_, a) => 0 <? a) l then pay_all s l else Ok s) = Ok s' ->
  ChefOnly s s' /\ ((forall d a, In (d, a) rev -> 0 <= f a) -> forall d, chef s' d = chef s d - coin_amt l d).
Proof.
  intros l H. destruct (existsb _ l) eqn:X.
  - apply pay_all_spec in H. destruct H as [C F]. auto.
  - injection H as <-. split; [apply co_refl|]. intros Hn d. unfold l. rewrite (coin_amt_zero f rev d Hn X). lia.
Qed.

Lemma collect_dex_pool_spec fx P s rev s' : collect_dex_pool fx P s rev = Ok s' ->
  ChefOnly s s' /\
  (fx_dex fx = true -> wf_params P -> rev_ok rev -> forall d, chef s' d = chef s d + keep P rev d).
Proof.
  unfold collect_dex_pool. destruct (recv_all_spec rev s) as [C1 F1]. set (s1 := recv_all s rev) in *.
  set (sts := map (fun '(d, a) => (d, st_coin P a)) rev). set (prs := map (fun '(d, a) => (d, pr_coin P a)) rev).
  intros H. apply bind_ok in H. destruct H as (s2 & E2 & H). apply pay_pos_spec in E2. destruct E2 as [C2 F2].
  (* the protocol coins leave as provider portion + the rest; repaired, the rest is taken of the protocol coins *)
  assert (T : ChefOnly s2 s' /\
              (fx_dex fx = true -> (forall d a, In (d, a) rev -> 0 <= pr_coin P a) -> forall d, chef s' d = chef s2 d - coin_amt prs d)).
  { cbv beta zeta in H. fold prs in H. revert H. destruct (existsb _ prs) eqn:X.
    - destruct (existsb (fun '(_, a) => a <? 0) _); [discriminate|]. intros H. apply bind_ok in H. destruct H as (s3 & E3 & E4).
      apply pay_all_spec in E3, E4. destruct E3 as [C3 F3], E4 as [C4 F4]. split; [eapply co_trans; eauto|].
      intros F _ d. rewrite F4, F3, F, (coin_amt_sub (pr_coin P) (fun a => portion_coin (pr_coin P a) (p_prov P)) rev d).
      fold prs. lia.
    - intros H; injection H as <-. split; [apply co_refl|]. intros _ Npr d. unfold prs. rewrite (coin_amt_zero (pr_coin P) rev d Npr X). lia. }
  destruct T as [C3 F3]. split; [eapply co_trans; [exact C1|eapply co_trans; eauto]|].
  intros F WP Hn d. pose proof (fun d0 a Hin => split_bounds P a WP (Hn d0 a Hin)) as SB.
  unfold keep. subst sts prs. rewrite (F3 F (fun d0 a Hin => proj1 (proj2 (SB d0 a Hin)))), (F2 (fun d0 a Hin => proj1 (SB d0 a Hin))), F1. lia.
Qed.

Definition sum_keep (P : params) (l : list pinp) (d : nat) : Z := lsum (fun pi => keep P (pi_rev pi) d) l.
Definition revs_ok (l : list pinp) : Prop := forall pi, In pi l -> rev_ok (pi_rev pi).

Lemma collect_dex_spec fx P l : forall s s', collect_dex fx P s l = Ok s' ->
  ChefOnly s s' /\
  (fx_dex fx = true -> wf_params P -> revs_ok l -> forall d, chef s' d = chef s d + sum_keep P l d).
Proof.
  induction l as [|pi r IH]; intros s s' H; cbn in H.
  - injection H as <-. split; [apply co_refl|]. intros _ _ _ d. cbn. lia.
  - apply bind_ok in H. destruct H as (s1 & E & H). destruct (IH s1 s' H) as [C F]. split.
    + eapply co_trans; [apply (collect_dex_pool_spec _ _ _ _ _ E)|exact C].
    + intros Fd WP RO d. rewrite (F Fd WP (fun pi' Hin => RO pi' (or_intror Hin)) d).
      rewrite (proj2 (collect_dex_pool_spec _ _ _ _ _ E) Fd WP (RO pi (or_introl eq_refl)) d).
      unfold sum_keep. rewrite lsum_cons. lia.
Qed.

Lemma sum_keep_bounds P l d : wf_params P -> revs_ok l -> 0 <= sum_keep P l d.
Proof.
  intros WP RO. apply lsum_nonneg. intros pi Hin. apply (keep_bounds P (pi_rev pi) d WP (RO pi Hin)).
Qed.

Definition sum_credit (fx : fixes) (P : params) (total gasD : Z) (l : list pinp) : Z :=
  lsum (pool_credit fx P total gasD) l.
Definition ptvls_ok (l : list pinp) : Prop := forall pi, In pi l -> 0 <= pi_ptvl pi.

Lemma pool_credit_nn fx P total gasD pi : wf_params P -> 0 <= gasD -> 0 <= pi_ptvl pi ->
  rev_ok (pi_rev pi) -> 0 <= pool_credit fx P total gasD pi.
Proof.
  intros WP Hg Hp Hr. unfold pool_credit. pose proof PREC_pos.
  set (share := if 0 <? total then _ else 0).
  assert (Hs : 0 <= share).
  { unfold share. destruct (0 <? total) eqn:T; [|lia]. apply Z.ltb_lt in T.
    destruct (fx_round fx); unfold dquo_trunc, dquo; [apply Z.quot_pos; nia|apply dquo_nonneg; lia]. }
  assert (Hgp : 0 <= (if fx_round fx then dmul_trunc share gasD else dmul share gasD)).
  { destruct (fx_round fx); unfold dmul_trunc, dmul, chop_trunc; [apply Z.quot_pos; [nia|reflexivity]|apply dmul_nonneg; lia]. }
  rewrite portion_dec_exact.
  destruct (keep_bounds P (pi_rev pi) USDC WP Hr) as (_ & _ & K3). destruct WP as (L0 & _).
  apply trunc_int_bounds. nia.
Qed.

Lemma distribute_spec fx P total gasD l : (forall pi, In pi l -> 0 <= pool_credit fx P total gasD pi) ->
  forall s, WF s ->
  Credited s (distribute fx P total gasD s l) (fun d => if Nat.eqb d USDC then sum_credit fx P total gasD l else 0).
Proof.
  induction l as [|pi r IH]; intros Hc s W; cbn [distribute].
  - apply cred_refl; [exact W|]. intros d. destruct (Nat.eqb d USDC); cbn; lia.
  - set (c := pool_credit fx P total gasD pi). pose proof (Hc pi (or_introl eq_refl)) as H0. fold c in H0.
    set (s1 := if (pi_ptvl pi =? 0) || negb (pi_pool pi <? np s)%nat then s else credit s (pi_pool pi) USDC c).
    assert (H1 : Credited s s1 (fun d => if Nat.eqb d USDC then c else 0)).
    { unfold s1. destruct ((pi_ptvl pi =? 0) || negb (pi_pool pi <? np s)%nat) eqn:G.
      - apply cred_refl; [exact W|]. intros d. destruct (Nat.eqb d USDC); lia.
      - apply orb_false_elim in G. destruct G as [_ G]. apply negb_false_iff, Nat.ltb_lt in G.
        destruct (credit_frame s (pi_pool pi) USDC c) as (SB & C & Ex).
        apply (credit_spec s (pi_pool pi) USDC c _ _ W H0 G SB C eq_refl); [|reflexivity|intros; lia].
        intros p' d'. unfold is_rden. rewrite Ex. auto. }
    apply (cred_trans _ _ _ _ _ _ H1 (IH (fun pi' Hin => Hc pi' (or_intror Hin)) s1 (cr_wf _ _ _ H1))).
    intros d. unfold sum_credit. rewrite lsum_cons. fold c. destruct (Nat.eqb d USDC); lia.
Qed.

(* the arithmetic of the repaired credit: shares are truncated, the gas amount is an integer number of coins *)
Definition share (total : Z) (pi : pinp) : Z := if 0 <? total then dquo_trunc (pi_ptvl pi) total else 0.

Lemma share_bound total pi : 0 <= pi_ptvl pi -> 0 <= share total pi /\ share total pi * total <= PREC * pi_ptvl pi.
Proof.
  intros Hp. unfold share. pose proof PREC_pos. destruct (Z.ltb_spec 0 total) as [T|T]; [|nia].
  unfold dquo_trunc. rewrite Z.quot_div_nonneg by nia.
  pose proof (Z.mul_div_le (pi_ptvl pi * PREC) total T). pose proof (Z.div_pos (pi_ptvl pi * PREC) total ltac:(nia) T). lia.
Qed.

Lemma sum_share_le_one l : ptvls_ok l -> lsum (share (sum_ptvl l)) l <= PREC.
Proof.
  intros PO. set (total := sum_ptvl l). destruct (Z.ltb_spec 0 total) as [T|T].
  - assert (B : lsum (fun pi => total * share total pi) l <= lsum (fun pi => PREC * pi_ptvl pi) l).
    { apply lsum_le. intros pi Hin. destruct (share_bound total pi (PO pi Hin)). lia. }
    rewrite !lsum_scale in B. change (lsum pi_ptvl l) with total in B. nia.
  - rewrite lsum_zero; [pose proof PREC_pos; lia|].
    intros pi _. unfold share. destruct (Z.ltb_spec 0 total); [lia|reflexivity].
Qed.

Lemma pool_credit_fixed fx P total L pi : fx_round fx = true -> wf_params P -> 0 <= L -> 0 <= pi_ptvl pi ->
  rev_ok (pi_rev pi) ->
  PREC * pool_credit fx P total (L * PREC) pi <= L * share total pi + PREC * keep P (pi_rev pi) USDC.
Proof.
  intros F WP HL Hp Hr. unfold pool_credit. rewrite F, portion_dec_exact. cbv iota. fold (share total pi).
  destruct (share_bound total pi Hp) as [Hs _].
  assert (E : dmul_trunc (share total pi) (L * PREC) = share total pi * L).
  { unfold dmul_trunc, chop_trunc. replace (share total pi * (L * PREC)) with (share total pi * L * PREC) by ring.
    apply Z.quot_mul. discriminate. }
  rewrite E. destruct (keep_bounds P (pi_rev pi) USDC WP Hr) as (_ & K2 & K3). destruct WP as (L0 & _).
  destruct (trunc_int_bounds (share total pi * L + coin_amt (pi_rev pi) USDC * p_lp P) ltac:(nia)) as [T0 T1]. lia.
Qed.

(* the repaired credit of a block is covered by what was moved in: L coins of gas and perpetual fees, and what
   the pools' revenue leaves after the stakers' and protocol portions *)
Lemma sum_credit_collected fx P L l : fx_round fx = true -> wf_params P -> 0 <= L -> ptvls_ok l -> revs_ok l ->
  sum_credit fx P (sum_ptvl l) (L * PREC) l <= L + sum_keep P l USDC.
Proof.
  intros F WP HL PO RO. pose proof (sum_share_le_one l PO) as S. unfold sum_credit, sum_keep. set (total := sum_ptvl l) in *.
  assert (B : lsum (fun pi => PREC * pool_credit fx P total (L * PREC) pi) l <=
              lsum (fun pi => L * share total pi + PREC * keep P (pi_rev pi) USDC) l).
  { apply lsum_le. intros pi Hin. apply (pool_credit_fixed fx P total L pi F WP HL (PO pi Hin) (RO pi Hin)). }
  rewrite lsum_add, !lsum_scale in B. pose proof (Z.mul_le_mono_nonneg_l _ _ L HL S).
  apply Z.mul_le_mono_pos_l with (p := PREC); [exact PREC_pos|lia].
Qed.

Lemma memn_app d l x : memn d (l ++ [x]) = memn d l || Nat.eqb d x.
Proof. unfold memn. rewrite existsb_app. cbn. rewrite orb_false_r. reflexivity. Qed.

Lemma inc_rem_step h i : i_from i < i_to i ->
  inc_rem (h + 1) i = inc_rem h i - (if inc_active h i then 1 else 0) /\ 0 <= inc_rem (h + 1) i /\
  (h = i_to i -> inc_rem (h + 1) i = 0).
Proof.
  intros H. unfold inc_rem, inc_active.
  destruct (i_from i <? h) eqn:A; [apply Z.ltb_lt in A|apply Z.ltb_ge in A];
  (destruct (h <=? i_to i) eqn:B; [apply Z.leb_le in B|apply Z.leb_gt in B]); cbn [andb]; lia.
Qed.

(* an active incentive is credited out of what was reserved for it, and its denom joins the pool's reward denoms;
   one that is dropped has nothing left *)
Lemma ext_one_spec s i s1 keep : WF s -> 0 < i_amt i -> i_from i < i_to i -> ext_one s i = (s1, keep) ->
  Credited s s1 (fun d => res_of (height s) d i - res_of (height s + 1) d i) /\
  (keep = false -> forall d, res_of (height s + 1) d i = 0).
Proof.
  intros W Ha Hft H. unfold ext_one in H. destruct (inc_rem_step (height s) i Hft) as (R1 & R2 & R3).
  assert (Same : Credited s s (fun d => res_of (height s) d i - res_of (height s + 1) d i)).
  { apply cred_refl; [exact W|]. intros d. unfold res_of.
    destruct (Nat.eqb (i_den i) d); [|lia]. destruct (inc_active (height s) i); nia. }
  assert (Drop : negb (height s =? i_to i) = false -> forall d, res_of (height s + 1) d i = 0).
  { intros T d. apply negb_false_iff, Z.eqb_eq in T. unfold res_of. rewrite (R3 T). destruct (Nat.eqb _ _); lia. }
  destruct (negb (i_pool i <? np s)%nat) eqn:G.
  - injection H as <- <-. split; [exact Same|discriminate].
  - apply negb_false_iff, Nat.ltb_lt in G. injection H as <- <-. split; [|exact Drop].
    destruct (inc_active (height s) i) eqn:A; [|exact Same].
    destruct (credit_frame s (i_pool i) (i_den i) (i_amt i)) as ([] & C & Ex).
    set (s' := credit s (i_pool i) (i_den i) (i_amt i)) in *.
    apply (credit_spec s (i_pool i) (i_den i) (i_amt i) (set_xden s' _) _ W ltac:(lia) G);
      [constructor; assumption|exact C|reflexivity|..]; unfold is_rden; cbn [set_xden xden]; rewrite ?Ex.
    + intros p' d' R. destruct (Nat.eqb d' USDC); [reflexivity|]. cbn [orb] in *.
      destruct (Nat.eqb p' (i_pool i) && negb (memn (i_den i) (xden s p'))); [rewrite memn_app, R; reflexivity|exact R].
    + rewrite Nat.eqb_refl. cbn [andb].
      destruct (memn (i_den i) (xden s (i_pool i))) eqn:M; cbn [negb]; [rewrite M; apply orb_true_r|].
      rewrite memn_app, Nat.eqb_refl, !orb_true_r. reflexivity.
    + intros d. unfold res_of. rewrite R1, (Nat.eqb_sym d). destruct (Nat.eqb (i_den i) d); lia.
Qed.

Lemma ext_all_spec l : forall s s2 l', WF s -> (forall i, In i l -> 0 < i_amt i /\ i_from i < i_to i) ->
  ext_all s l = (s2, l') ->
  Credited s s2 (fun d => res_list (height s) d l - res_list (height s + 1) d l') /\ forall i, In i l' -> In i l.
Proof.
  induction l as [|i r IH]; intros s s2 l' W Hl H; cbn [ext_all] in H.
  - injection H as <- <-. split; [|auto]. apply cred_refl; [exact W|]. intros d. cbn. lia.
  - destruct (ext_one s i) as [s1 keep] eqn:E1. destruct (ext_all s1 r) as [s2' r'] eqn:E2. injection H as <- <-.
    destruct (Hl i (or_introl eq_refl)) as [Ha Hft].
    destruct (ext_one_spec s i s1 keep W Ha Hft E1) as (C1 & K).
    destruct (IH s1 s2' r' (cr_wf _ _ _ C1) (fun j Hj => Hl j (or_intror Hj)) E2) as (C2 & I2).
    rewrite (sb_h _ _ (cr_sb _ _ _ C1)) in C2. split.
    + apply (cred_trans _ _ _ _ _ _ C1 C2). intros d. unfold res_list.
      destruct keep; rewrite !lsum_cons; [|rewrite K by reflexivity]; lia.
    + intros j Hj. destruct keep; [destruct Hj as [<-|Hj]; [left; reflexivity|]|]; right; apply I2; exact Hj.
Qed.

Lemma add_inc_spec s d p from to amt funded s' : WF s -> add_inc s d p from to amt funded = Ok s' -> Up s s'.
Proof.
  intros W H. unfold add_inc in H.
  destruct (from <? height s) eqn:A; [discriminate|]. apply Z.ltb_ge in A.
  destruct (to <=? from) eqn:B; [discriminate|]. apply Z.leb_gt in B.
  destruct (amt <=? 0) eqn:C; [discriminate|]. apply Z.leb_gt in C.
  destruct (negb funded); [discriminate|]. injection H as <-. set (s' := mkS _ _ _ _ _ _ _ _ _ _ _ _).
  constructor; try reflexivity.
  - assert (A2 : forall p0 d0, is_rden s' p0 d0 = false -> acc s' p0 d0 = 0) by (intros p0 d0 R; apply (w_rden s W p0 d0 R)).
    destruct W as [A1 A3 A4 A5 A6 A7 A8]. constructor; auto.
    intros i Hi. cbn [s' incs] in Hi. apply in_app_or in Hi. destruct Hi as [Hi|[<-|[]]]; [apply A8; exact Hi|cbn; lia].
  - intros d'. unfold slack. change (owed s' d') with (owed s d'). rewrite !reserved_res_list.
    cbn [s' incs height chef]. rewrite res_list_app, addc_eq. unfold res_of, inc_rem. cbn [i_den i_amt i_from i_to].
    rewrite (Nat.eqb_sym d' d). destruct (Nat.eqb d d'); [|lia].
    replace (Z.max 0 (to - Z.max from (height s - 1))) with (to - from) by lia. lia.
Qed.

Lemma existsb_none {A} (f : A -> bool) l x : existsb f l = false -> In x l -> f x = false.
Proof.
  intros H Hin. destruct (f x) eqn:F; [|reflexivity]. rewrite <- H. symmetry. apply existsb_exists. eauto.
Qed.

Lemma block_guard b :
  (b_gas b <? 0) || (b_perp b <? 0) || existsb (fun pi => pi_ptvl pi <? 0) (b_pools b)
     || existsb (fun pi => existsb (fun '(_, a) => a <=? 0) (pi_rev pi)) (b_pools b) = false ->
  0 <= b_gas b /\ 0 <= b_perp b /\ ptvls_ok (b_pools b) /\ revs_ok (b_pools b).
Proof.
  intros H. apply orb_false_elim in H. destruct H as [H H4]. apply orb_false_elim in H. destruct H as [H H3].
  apply orb_false_elim in H. destruct H as [H1 H2]. apply Z.ltb_ge in H1, H2.
  split; [exact H1|]. split; [exact H2|]. split.
  - intros pi Hin. apply (existsb_none _ _ pi H3), Z.ltb_ge in Hin. exact Hin.
  - intros pi Hin d a Hin2. apply (existsb_none _ _ pi H4) in Hin. apply (existsb_none _ _ (d, a) Hin), Z.leb_gt in Hin2. lia.
Qed.

Record BlockFrame (s s' : state) : Prop := mkBF {
  bf_nu : nu s' = nu s; bf_np : np s' = np s; bf_tot : tot s' = tot s; bf_bal : bal s' = bal s;
  bf_pend : pend s' = pend s; bf_debt : debt s' = debt s; bf_h : height s' = height s + 1 }.

Definition fixed_sites (fx : fixes) : Prop := fx_perp fx = true /\ fx_dex fx = true /\ fx_round fx = true.

Lemma repaired_fixed fu : fixed_sites (repaired fu).
Proof. repeat split. Qed.

(* with the three sites repaired the slack does not fall: the coins moved in cover the credit of the pools, the
   released funding covers the credit of the incentives *)
Lemma block_spec fx P s b s' : wf_params P -> WF s -> block fx P s b = Ok s' ->
  WF s' /\ BlockFrame s s' /\ (fixed_sites fx -> forall d, slack s d <= slack s' d).
Proof.
  intros WP W H. unfold block in H. destruct (_ || _ || _ || _) eqn:G in H; [discriminate|].
  apply block_guard in G. destruct G as (G0 & Q0 & PO & RO).
  destruct (collect_gas P s (b_gas b)) as [s1 gD] eqn:E1.
  destruct (collect_perp fx P s1 (b_perp b)) as [[s2 qD]| |] eqn:E2; cbn [bind] in H; try discriminate.
  destruct (collect_dex fx P s2 (b_pools b)) as [s3| |] eqn:E3; cbn [bind] in H; try discriminate.
  cbv zeta in H. set (gasD := if fx_round fx then _ else _) in H. set (s4 := distribute _ _ _ _ _ _) in H.
  destruct (ext_all s4 (incs s4)) as [s5 incs'] eqn:E5. injection H as <-.
  destruct (collect_gas_spec P s (b_gas b) s1 gD E1) as (C1 & EgD & F1).
  destruct (collect_perp_spec fx P s1 (b_perp b) s2 qD E2) as (C2 & EqD & F2).
  destruct (collect_dex_spec fx P (b_pools b) s2 s3 E3) as [C3 F3].
  assert (C13 : ChefOnly s s3) by (eapply co_trans; [exact C1|eapply co_trans; eauto]).
  pose proof WP as (L0 & _).
  assert (HgD : 0 <= gD) by (rewrite EgD; nia). assert (HqD : 0 <= qD) by (rewrite EqD; nia).
  assert (Hgas : 0 <= gasD).
  { unfold gasD. destruct (fx_round fx); [|lia]. rewrite !trunc_dec_eq.
    destruct (trunc_int_bounds gD HgD). destruct (trunc_int_bounds qD HqD). pose proof PREC_pos. nia. }
  destruct (distribute_spec fx P (sum_ptvl (b_pools b)) gasD (b_pools b)) with (s := s3) as [SB4 C4 W4 O4];
    [intros pi Hin; apply pool_credit_nn; auto|apply (co_wf s s3 C13 W)|]. fold s4 in SB4, C4, W4, O4.
  destruct (ext_all_spec (incs s4) s4 s5 incs' W4 (w_incs s4 W4) E5) as ([SB5 C5 W5 O5] & I5).
  set (s' := mkS _ _ _ _ _ _ _ _ _ _ _ _). split; [|split].
  - destruct W5 as [A1 A2 A3 A4 A5 A6 A7]. constructor; try assumption.
    intros i Hi. apply A7. rewrite (sb_incs _ _ SB5). apply I5, Hi.
  - destruct (sb_trans _ _ _ (co_sb _ _ C13) (sb_trans _ _ _ SB4 SB5)).
    constructor; cbn [s' nu np tot bal pend debt height]; congruence.
  - intros (Fp & Fd & Fr) d.
    (* the collectors raise the balance, the distribution raises the liabilities ... *)
    pose proof (sb_slack s s3 d (co_sb _ _ C13)) as A. rewrite (co_owed s s3 d C13), (F3 Fd WP RO d), (F2 Fp d), F1 in A.
    pose proof (sb_slack s3 s4 d SB4) as B. rewrite C4 in B. specialize (O4 d).
    (* ... and what the incentives credit is no longer reserved *)
    assert (C : slack s4 d <= slack s' d).
    { unfold slack. change (owed s' d) with (owed s5 d). rewrite !reserved_res_list. cbn [s' incs height chef].
      specialize (O5 d). rewrite (sb_h _ _ SB5), C5. lia. }
    assert (OO : 0 <= ONE * ONE) by (unfold ONE; pose proof PREC_pos; nia).
    destruct (Nat.eqb_spec d USDC) as [E|_].
    2:{ pose proof (Z.mul_nonneg_nonneg _ _ (sum_keep_bounds P (b_pools b) d WP RO) OO). lia. }
    subst d.
    (* the credited integers against the coins moved in, at scale 10^36 *)
    unfold gasD in O4. rewrite Fr, !trunc_dec_eq, <- Z.mul_add_distr_r in O4.
    destruct (trunc_int_bounds gD HgD) as [Lg0 _]. destruct (trunc_int_bounds qD HqD) as [Lq0 _].
    pose proof (sum_credit_collected fx P (trunc_int gD + trunc_int qD) (b_pools b) Fr WP ltac:(lia) PO RO) as SC.
    pose proof (Z.mul_le_mono_nonneg_r _ _ (ONE * ONE) OO SC). lia.
Qed.

Definition Inv (fx : fixes) (n m : nat) (s : state) : Prop :=
  WF s /\ nu s = n /\ np s = m /\ (fixed_sites fx -> SOLV s).

Lemma up_inv fx n m s s' : Up s s' -> Inv fx n m s -> Inv fx n m s'.
Proof.
  intros U (_ & En & Em & S). split; [apply U|]. split; [rewrite (u_nu _ _ U); exact En|].
  split; [rewrite (u_np _ _ U); exact Em|]. intros F. apply (up_solv s s' U), S, F.
Qed.

Lemma step_inv fx P n m s o s' : wf_params P -> Inv fx n m s -> step fx P s o = Ok s' -> Inv fx n m s'.
Proof.
  intros WP I H. pose proof I as (W & En & Em & S). destruct o as [u p a|u p a|u ps|u|d p f t a fd|b]; cbn [step] in H.
  1-5: refine (up_inv fx n m s s' _ I).
  - apply (deposit_spec s u p a s' W H).
  - apply (withdraw_spec fx s u p a s' W H).
  - assert (Hu : (u < n)%nat) by (unfold claim in H; destruct (Nat.ltb_spec u (nu s)); [lia|discriminate]).
    pose proof (claim_payer n m u ps Hu s W En Em) as U. cbv beta in U. rewrite H in U. exact U.
  - apply (touch_spec s u s' W H).
  - apply (add_inc_spec s d p f t a fd s' W H).
  - destruct (block_spec fx P s b s' WP W H) as (W' & BF & N).
    split; [exact W'|]. split; [rewrite (bf_nu _ _ BF); exact En|]. split; [rewrite (bf_np _ _ BF); exact Em|].
    intros F d. specialize (N F d). specialize (S F d). lia.
Qed.

Lemma run_init fx P n m h ops : wf_params P -> Inv fx n m (run fx P (init_state n m h) ops).
Proof.
  intros WP. apply (execs_inv (Inv fx n m) (fun _ => True) (step fx P)).
  - intros s o s' _ I H. apply (step_inv fx P n m s o s' WP I H).
  - apply Forall_all. trivial.
  - split; [apply wf_init|]. split; [reflexivity|]. split; [reflexivity|]. intros _ d.
    unfold slack, owed, reserved. cbn.
    rewrite sumn_zero; [lia|]. intros p _. apply sumn_zero. intros u _. unfold term. cbn. lia.
Qed.

(* the property's own form: truncated claimable amounts *)
Lemma claimable_le_term s d p u : WF s -> 0 <= claimable s u p d /\ claimable s u p d * (ONE * ONE) <= term s d p u.
Proof.
  intros W. unfold claimable, pending_total, term, dquo_int, dmul_int.
  pose proof (w_debt s W u p d). pose proof (w_pend s W u p d).
  destruct (quot_ONE_bounds (acc s p d * bal s u p - debt s u p d) ltac:(lia)) as (Q0 & Q1).
  destruct (trunc_int_bounds (pend s u p d + Z.quot (acc s p d * bal s u p - debt s u p d) ONE) ltac:(lia)) as (T0 & _ & T1).
  fold ONE in T1. pose proof ONE_pos. split; [exact T0|nia].
Qed.

Lemma pending_no_shares s u p d : WF s -> bal s u p = 0 -> pending_total s u p d = pend s u p d.
Proof.
  intros W B. unfold pending_total, dquo_int, dmul_int. pose proof (w_debt s W u p d) as D. rewrite B in *.
  replace (debt s u p d) with 0 by lia. rewrite Z.mul_0_r. cbn. lia.
Qed.

Lemma sum_claimable_le_owed s d : WF s -> 0 <= sum_claimable s d /\ sum_claimable s d * (ONE * ONE) <= owed s d.
Proof.
  intros W. unfold sum_claimable, owed. split.
  - apply sumn_nonneg. intros p _. apply sumn_nonneg. intros u _. apply claimable_le_term. exact W.
  - rewrite Z.mul_comm, <- sumn_scale. apply sumn_le. intros p _. rewrite <- sumn_scale. apply sumn_le. intros u _.
    rewrite Z.mul_comm. apply claimable_le_term. exact W.
Qed.

Definition P0 : params := mkP 600000000000000000 250000000000000000 250000000000000000.
Lemma wf_P0 : wf_params P0. Proof. unfold wf_params, P0, PREC; cbn; lia. Qed.

Definition SH : Z := 1000000000000000000.   (* shares of the single liquidity provider *)

(* dex: one pool, one provider, 30 000 000 uusdc of swap fees on the revenue address *)
Definition dex_ops : list op := [ODeposit 0 0 SH; OBlock (mkB 0 0 [mkPI 0 PREC [(USDC, 30000000)]])].
(* perp: 1 000 000 uusdc of perpetual revenue *)
Definition perp_ops : list op := [ODeposit 0 0 SH; OBlock (mkB 0 1000000 [mkPI 0 PREC []])].
(* round: 1 uusdc of gas fees and 1 uusdc of perpetual revenue in the same block *)
Definition dust_ops : list op := [ODeposit 0 0 SH; OBlock (mkB 1 1 [mkPI 0 PREC []])].
