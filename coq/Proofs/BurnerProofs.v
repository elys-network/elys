(* C19 - the commutativity instance for the burner's map range (Models/Burner.v). *)
From stdpp Require Import gmap.
From Elys Require Import Base.Res Models.Restart Models.Burner Proofs.RestartProofs.
Open Scope Z_scope.

Lemma getz_insert_ne (m : gmap N Z) d d' v : d ≠ d' -> getz (<[d' := v]> m) d = getz m d.
Proof. intros Hne. unfold getz. rewrite lookup_insert_ne by done. done. Qed.

Lemma can_burn_apply_ne ts d1 a1 d2 a2 s : d1 ≠ d2 -> can_burn d1 a1 (apply_burn ts d2 a2 s) = can_burn d1 a1 s.
Proof. intros Hne. unfold can_burn, apply_burn; cbn. rewrite !getz_insert_ne by done. done. Qed.

Lemma apply_burn_comm ts d1 a1 d2 a2 s : d1 ≠ d2 ->
  apply_burn ts d2 a2 (apply_burn ts d1 a1 s) = apply_burn ts d1 a1 (apply_burn ts d2 a2 s).
Proof.
  intros Hne. unfold apply_burn; cbn. rewrite !getz_insert_ne by done.
  f_equal; apply insert_commute; congruence.
Qed.

Lemma burn_commutes ts : commutes (burn_one ts).
Proof.
  intros d1 a1 d2 a2 s Hne. unfold burn_one.
  destruct (can_burn d1 a1 s) eqn:C1; destruct (can_burn d2 a2 s) eqn:C2; cbn.
  - rewrite (can_burn_apply_ne ts d2 a2 d1 a1 s) by done. rewrite (can_burn_apply_ne ts d1 a1 d2 a2 s) by done.
    rewrite C1, C2. f_equal. apply apply_burn_comm. done.
  - rewrite (can_burn_apply_ne ts d2 a2 d1 a1 s) by done. rewrite C2. done.
  - rewrite (can_burn_apply_ne ts d1 a1 d2 a2 s) by done. rewrite C1. done.
  - done.
Qed.

Lemma list_fmap_map {A B} (f : A -> B) (l : list A) : f <$> l = List.map f l.
Proof. induction l as [|x r IH]; cbn; [done | by rewrite IH]. Qed.

Lemma entries_nodup (m : gmap N Z) : List.NoDup (List.map fst (map_to_list m)).
Proof. rewrite <- list_fmap_map. apply NoDup_ListNoDup. apply NoDup_fst_map_to_list. Qed.

(* BurnTokensForAllDenoms: the outcome (new state or failure) is the same for every order in which the Go
   runtime may deliver the entries of the balances map *)
Theorem burner_order_irrelevant ts meta s l1 l2 :
  burn_orders meta s l1 -> burn_orders meta s l2 -> burn_in_order ts l1 s = burn_in_order ts l2 s.
Proof.
  intros P1 P2. unfold burn_in_order.
  apply (order_irrelevant (burn_one ts) (map_to_list (positive_balances meta s)) l1 l2 s);
    [apply burn_commutes | apply entries_nodup | exact P1 | exact P2].
Qed.

Lemma lift_commutes {P T K E : Type} (b : K -> E -> P -> res P) : commutes b -> commutes (@lift_body P T K E b).
Proof.
  intros Hc k1 e1 k2 e2 [p t] Hne. specialize (Hc k1 e1 k2 e2 p Hne).
  unfold lift_body at 1 3. cbn [pers trans].
  destruct (b k1 e1 p) as [p1|c1|c1] eqn:B1; destruct (b k2 e2 p) as [p2|c2|c2] eqn:B2; cbn [bind] in *;
    unfold lift_body; cbn [pers trans]; try rewrite Hc; try rewrite <- Hc; try reflexivity; try congruence.
Qed.

(* not vacuous: three denoms with metadata, two of them with a positive balance at the zero address; both
   visiting orders are orders of the map, the burn succeeds, and the outcome is the same *)
Definition demo_state : bstate :=
  mkB (<[1%N := 70]> (<[2%N := 5]> ∅)) ∅ (<[1%N := 1000]> (<[2%N := 1000]> ∅)) ∅.
Example burner_two_denoms :
  burn_orders [1%N; 2%N; 3%N] demo_state [(1%N, 70); (2%N, 5)] /\
  burn_orders [1%N; 2%N; 3%N] demo_state [(2%N, 5); (1%N, 70)] /\
  is_ok (burn_in_order 9%N [(1%N, 70); (2%N, 5)] demo_state) = true /\
  burn_in_order 9%N [(1%N, 70); (2%N, 5)] demo_state = burn_in_order 9%N [(2%N, 5); (1%N, 70)] demo_state.
Proof.
  assert (A : burn_orders [1%N; 2%N; 3%N] demo_state [(1%N, 70); (2%N, 5)]).
  { unfold burn_orders. vm_compute. first [apply Permutation_refl | apply perm_swap]. }
  assert (B : burn_orders [1%N; 2%N; 3%N] demo_state [(2%N, 5); (1%N, 70)]).
  { unfold burn_orders. vm_compute. first [apply Permutation_refl | apply perm_swap]. }
  split; [exact A|]. split; [exact B|]. split; [vm_compute; reflexivity|].
  exact (burner_order_irrelevant 9%N _ _ _ _ A B).
Qed.
