(* Proofs about Models/Shield.v (x/tradeshield order escrow). *)
From Coq Require Import ZArith List Bool Lia.
From Elys Require Import Base.Res Base.ResFacts Models.Shield.
Import ListNotations.
Open Scope Z_scope.

Lemma NoDup_map_filter {A B} (f : A -> B) (g : A -> bool) l : NoDup (map f l) -> NoDup (map f (filter g l)).
Proof.
  induction l as [|x l IH]; cbn; intros ND; [constructor|]. inversion ND as [|? ? NI ND']; subst.
  destruct (g x); cbn; auto. constructor; auto.
  intros I. apply NI. apply in_map_iff in I. destruct I as (y & E & Iy). apply filter_In in Iy.
  rewrite <- E. apply in_map, Iy.
Qed.

Lemma NoDup_snoc {A} (x : A) l : NoDup l -> ~ In x l -> NoDup (l ++ [x]).
Proof. intros ND N. apply (NoDup_Add (Add_app x l [])). rewrite app_nil_r. auto. Qed.

Lemma addr_eqb_spec a b : reflect (a = b) (addr_eqb a b).
Proof.
  destruct a as [x|x|x|x], b as [y|y|y|y]; cbn; try (right; discriminate);
    (destruct (Z.eqb_spec x y) as [->|N]; constructor; [reflexivity|intros H; injection H as H; exact (N H)]).
Qed.

Lemma addr_eqb_refl a : addr_eqb a a = true.
Proof. destruct (addr_eqb_spec a a); [reflexivity|contradiction]. Qed.

Lemma addr_eqb_neq a b : a <> b -> addr_eqb a b = false.
Proof. intro H. destruct (addr_eqb_spec a b); [contradiction|reflexivity]. Qed.

Lemma bset_same b a d v : bset b a d v a d = v.
Proof. unfold bset. rewrite addr_eqb_refl, Z.eqb_refl. reflexivity. Qed.

Lemma bset_other b a d v a' d' : (a' <> a \/ d' <> d) -> bset b a d v a' d' = b a' d'.
Proof.
  intros [H | H]; unfold bset.
  - rewrite (addr_eqb_neq _ _ H). reflexivity.
  - destruct (addr_eqb a' a); simpl; auto. destruct (Z.eqb_spec d' d); auto; contradiction.
Qed.

Lemma send_some b from to d amt b' : send b from to d amt = Some b' ->
  0 <= amt /\
  (forall a d', (a <> from /\ a <> to) \/ d' <> d -> b' a d' = b a d') /\
  (from <> to -> b' from d = b from d - amt /\ b' to d = b to d + amt) /\
  (is_ext from = false -> amt <= b from d \/ amt = 0).
Proof.
  unfold send. destruct (Z.leb_spec amt 0) as [L|L].
  - destruct (Z.eqb_spec amt 0) as [E|E]; [|discriminate]. intro H; inversion H; subst.
    repeat split; auto; lia.
  - destruct (negb (is_ext from) && (b from d <? amt)) eqn:G; [discriminate|].
    intro H; inversion H; subst; clear H. repeat split.
    + lia.
    + intros a d' [[A1 A2] | D]; rewrite !bset_other; auto.
    + rewrite bset_other by auto. apply bset_same.
    + rewrite bset_same. rewrite bset_other by auto. reflexivity.
    + intro X. rewrite X in G. simpl in G. apply Z.ltb_ge in G. lia.
Qed.

Lemma send_exact b from to d amt : 0 <= amt -> (is_ext from = true \/ amt <= b from d) -> exists b', send b from to d amt = Some b'.
Proof.
  intros A S. unfold send. destruct (Z.leb_spec amt 0).
  - assert (amt = 0) by lia. subst. simpl. eauto.
  - destruct S as [S|S]; [rewrite S; simpl; eauto|].
    destruct (Z.ltb_spec (b from d) amt); [lia|]. rewrite andb_false_r. eauto.
Qed.

Lemma move_all_spec b from to d a d' : from <> to -> 0 <= b from d ->
  move_all b from to d a d' =
    if d' =? d then (if addr_eqb a from then 0 else if addr_eqb a to then b a d' + b from d else b a d') else b a d'.
Proof.
  intros NE NN. unfold move_all.
  destruct (Z.eqb_spec d' d) as [->|E]; [|destruct (b from d <=? 0); [|rewrite !bset_other]; auto].
  destruct (addr_eqb_spec a from) as [->|N1]; [|destruct (addr_eqb_spec a to) as [->|N2]];
    (destruct (Z.leb_spec (b from d) 0); [lia|]).
  - rewrite bset_other by auto. apply bset_same.
  - rewrite bset_same, bset_other by auto. reflexivity.
  - rewrite !bset_other by auto. reflexivity.
Qed.

Lemma move_list_spec ds : forall b from to a d', from <> to -> (forall d, 0 <= b from d) ->
  fold_left (fun b d => move_all b from to d) ds b a d' =
    if existsb (Z.eqb d') ds
    then (if addr_eqb a from then 0 else if addr_eqb a to then b a d' + b from d' else b a d') else b a d'.
Proof.
  induction ds as [|d0 t IH]; intros b from to a d' NE NN; [reflexivity|]. cbn [fold_left existsb].
  assert (H1 := fun a d' => move_all_spec b from to d0 a d' NE (NN d0)).
  assert (Hf : forall d, move_all b from to d0 from d = if d =? d0 then 0 else b from d).
  { intros d. rewrite H1, addr_eqb_refl. reflexivity. }
  rewrite IH; [|exact NE|intros d; rewrite Hf; destruct (d =? d0); [lia|apply NN]].
  rewrite Hf, H1.
  destruct (Z.eqb_spec d' d0) as [->|_]; destruct (existsb _ t), (addr_eqb a from), (addr_eqb a to); cbn; lia.
Qed.

Lemma sweep_spec b from to a d' : from <> to -> (forall d, 0 <= b from d) ->
  sweep b from to a d' =
    if known_denom d' then (if addr_eqb a from then 0 else if addr_eqb a to then b a d' + b from d' else b a d') else b a d'.
Proof.
  intros NE NN. unfold sweep. rewrite move_list_spec by assumption.
  replace (existsb (Z.eqb d') all_denoms) with (known_denom d'); [reflexivity|].
  unfold known_denom. cbn. rewrite orb_false_r, !orb_assoc. reflexivity.
Qed.

Definition okey (o : order) : bool * Z := (o_perp o, o_id o).

Lemma key_eqb_okey p id o : key_eqb p id o = true <-> okey o = (p, id).
Proof.
  unfold key_eqb, okey. rewrite andb_true_iff, Z.eqb_eq, eqb_true_iff.
  split; [intros [-> ->]; reflexivity|intros E; injection E; auto].
Qed.

Lemma find_ord_some p id l o : find_ord p id l = Some o -> In o l /\ o_perp o = p /\ o_id o = id.
Proof.
  unfold find_ord; intro H. apply find_some in H. destruct H as [A B]. apply key_eqb_okey in B.
  injection B; auto.
Qed.

Lemma find_none_iff p id l : find_ord p id l = None <-> ~ In (p, id) (map okey l).
Proof.
  unfold find_ord. induction l as [|x l IH]; simpl; [tauto|].
  destruct (key_eqb p id x) eqn:K.
  - apply key_eqb_okey in K. split; [discriminate|]. intros H. destruct H. left. exact K.
  - rewrite IH. split; [intros H [E|E]; [|auto]|tauto].
    apply key_eqb_okey in E. congruence.
Qed.

Lemma nodup_okey_inj l x y : NoDup (map okey l) -> In x l -> In y l -> okey x = okey y -> x = y.
Proof.
  induction l as [|a l IH]; intros ND Ix Iy E; [destruct Ix|]. inversion ND as [|? ? NI ND']; subst.
  destruct Ix as [->|Ix], Iy as [->|Iy]; auto; exfalso; apply NI; [rewrite E|rewrite <- E]; apply in_map; assumption.
Qed.

Lemma find_in_nodup l o : NoDup (map okey l) -> In o l -> find_ord (o_perp o) (o_id o) l = Some o.
Proof.
  intros ND I. destruct (find_ord (o_perp o) (o_id o) l) as [x|] eqn:F.
  - destruct (find_ord_some _ _ _ _ F) as (Ix & P & ID). f_equal.
    apply (nodup_okey_inj l); auto. unfold okey. congruence.
  - apply find_none_iff in F. destruct F. apply (in_map okey) in I. exact I.
Qed.

Lemma find_incl l l' p id x : NoDup (map okey l) -> incl l' l -> find_ord p id l' = Some x -> find_ord p id l = Some x.
Proof.
  intros ND S F. destruct (find_ord_some _ _ _ _ F) as (Ix & <- & <-). apply find_in_nodup; [exact ND|apply S, Ix].
Qed.

Lemma ids_fresh s (p : bool) id : (forall o, In o (ords s) -> o_id o < (if o_perp o then npid s else nsid s)) ->
  (if p then npid s else nsid s) <= id -> ~ In (p, id) (map okey (ords s)).
Proof.
  intros IDS L I. apply in_map_iff in I. destruct I as (x & E & Ix). specialize (IDS x Ix).
  injection E as E1 E2. rewrite E1, E2 in IDS. lia.
Qed.

Lemma in_remove x p id l : In x (remove_ord p id l) <-> In x l /\ okey x <> (p, id).
Proof.
  unfold remove_ord. rewrite filter_In, negb_true_iff, <- not_true_iff_false, key_eqb_okey. reflexivity.
Qed.

Lemma remove_notin p id l : ~ In (p, id) (map okey l) -> remove_ord p id l = l.
Proof.
  unfold remove_ord. induction l as [|y l IH]; cbn; intros N; [reflexivity|].
  destruct (key_eqb p id y) eqn:K; [apply key_eqb_okey in K; destruct N; auto|].
  cbn. f_equal. apply IH. tauto.
Qed.

Lemma find_remove_other p id p' id' l :
  (p, id) <> (p', id') -> find_ord p id (remove_ord p' id' l) = find_ord p id l.
Proof.
  intro N. unfold find_ord, remove_ord. induction l as [|x l IH]; simpl; auto.
  destruct (key_eqb p' id' x) eqn:K'; simpl.
  - destruct (key_eqb p id x) eqn:K; auto.
    apply key_eqb_okey in K; apply key_eqb_okey in K'. congruence.
  - destruct (key_eqb p id x); auto.
Qed.

Lemma keys_replace n l : map okey (replace_ord n l) = map okey l.
Proof.
  unfold replace_ord. rewrite map_map. apply map_ext. intros x.
  destruct (key_eqb (o_perp n) (o_id n) x) eqn:K; [apply key_eqb_okey in K; auto|reflexivity].
Qed.

Lemma in_replace y n l : In y (replace_ord n l) -> y = n \/ In y l.
Proof.
  unfold replace_ord. rewrite in_map_iff. intros (x & E & I).
  destruct (key_eqb (o_perp n) (o_id n) x); subst; auto.
Qed.

Lemma step_cancel fixed s sender (p : bool) id :
  step_gen fixed s (if p then OCancelPerp sender id else OCancelSpot sender id) = cancel_one sender p id s.
Proof. destruct p; reflexivity. Qed.

(* the bank after a cancel: a perpetual order returns the collateral (CancelPerpetualOrder), a spot order
   every balance of the order address *)
Definition cancel_bank (p : bool) (b : bank) (o : order) : option bank :=
  if p then send b (esc o) (AUser (o_owner o)) (o_den o) (o_amt o)
  else Some (sweep b (esc o) (AUser (o_owner o))).

Lemma cancel_one_ok sender p id s s' : cancel_one sender p id s = Ok s' <->
  exists o b, id <> 0 /\ find_ord p id (ords s) = Some o /\ o_owner o = sender /\
    cancel_bank p (bk s) o = Some b /\ s' = mkS b (remove_ord p id (ords s)) (nsid s) (npid s).
Proof.
  unfold cancel_one, cancel_bank. split.
  - destruct (Z.eqb_spec id 0) as [|N]; [discriminate|]. destruct (find_ord p id (ords s)) as [o|]; [|discriminate].
    destruct (Z.eqb_spec (o_owner o) sender) as [O|]; [|discriminate]. cbn [negb]. intros H. exists o.
    destruct p; [destruct (send _ _ _ _ _) as [b|]; [|discriminate]|]; injection H as <-; eexists; repeat split; auto.
  - intros (o & b & N & F & O & B & ->). apply Z.eqb_neq in N. apply Z.eqb_eq in O. rewrite N, F, O. cbn [negb].
    destruct p; [rewrite B|injection B as <-]; reflexivity.
Qed.

Lemma cancel_one_foreign sender p id s o :
  find_ord p id (ords s) = Some o -> o_owner o <> sender -> exists e, cancel_one sender p id s = Err e.
Proof.
  intros F N. unfold cancel_one. destruct (id =? 0); [eauto|]. rewrite F.
  destruct (Z.eqb_spec (o_owner o) sender); [contradiction|]. cbn. eauto.
Qed.

Lemma cancel_one_not_panic sender p id s c : cancel_one sender p id s <> Panic c.
Proof.
  unfold cancel_one. destruct (id =? 0); [discriminate|].
  destruct (find_ord p id (ords s)); [|discriminate].
  destruct (negb (o_owner o =? sender)); [discriminate|].
  destruct p; [destruct (send _ _ _ _ _)|]; discriminate.
Qed.

Lemma cancel_list_foreign sender p ids : forall s id o,
  In id ids -> find_ord p id (ords s) = Some o -> o_owner o <> sender ->
  exists e, cancel_list sender p ids s = Err e.
Proof.
  induction ids as [|i t IH]; intros s id o I F N; [destruct I|].
  simpl. destruct (cancel_one sender p i s) as [s1|e|c] eqn:C; simpl.
  - apply cancel_one_ok in C. destruct C as (o1 & b & _ & F1 & O1 & _ & ->).
    assert (id <> i) as Ni by congruence.
    destruct I as [I | I]; [congruence|].
    apply (IH _ id o I); [|exact N]. cbn [ords]. rewrite find_remove_other; [exact F|congruence].
  - eauto.
  - destruct (cancel_one_not_panic _ _ _ _ _ C).
Qed.

(* the messages that put a new order into the book: a spot limit order (type 3, MARKETBUY, is filled at once) or a
   perpetual open order *)
Definition is_create (o : op) : Prop :=
  match o with
  | OCreateSpot _ typ _ _ _ _ _ _ => typ <> 3
  | OCreatePerp _ _ _ _ _ _ _ _ _ => True
  | _ => False
  end.

Definition is_update (o : op) : Prop :=
  match o with OUpdateSpot _ _ _ _ _ | OUpdatePerp _ _ _ _ _ _ => True | _ => False end.

Lemma create_ok fixed s o s' : is_create o -> step_gen fixed s o = Ok s' ->
  exists n b, o_id n = (if o_perp n then npid s else nsid s) /\ known_denom (o_den n) = true /\
    send (bk s) (AUser (o_owner n)) (esc n) (o_den n) (o_amt n) = Some b /\
    s' = mkS b (ords s ++ [n]) (if o_perp n then nsid s else nsid s + 1) (if o_perp n then npid s + 1 else npid s).
Proof.
  destruct o; try contradiction; intros T; cbn.
  - destruct (_ || _ || _ || _ || _) eqn:G; [discriminate|].
    destruct (Z.eqb_spec typ 3); [contradiction|].
    destruct (send _ _ _ _ _) as [b|] eqn:S; [|discriminate]. intros H. injection H as <-.
    rewrite !orb_false_iff in G. destruct G as [_ G5]. apply negb_false_iff in G5.
    eexists (mkO false _ _ _ _ _ _ _ _ _ _ _), b. cbn. repeat split; eassumption || reflexivity.
  - destruct (_ || _ || _ || _ || _ || _) eqn:G; [discriminate|].
    destruct (env =? 1); [discriminate|]. destruct (existsb _ _); [discriminate|].
    destruct (negb (env =? 0)); [discriminate|].
    destruct (send _ _ _ _ _) as [b|] eqn:S; [|discriminate]. intros H. injection H as <-.
    rewrite !orb_false_iff in G. destruct G as [_ G6]. apply negb_false_iff in G6.
    eexists (mkO true _ _ _ _ _ _ _ _ _ _ _), b. cbn. repeat split; eassumption || reflexivity.
Qed.

Lemma update_ok fixed s o s' : is_update o -> step_gen fixed s o = Ok s' ->
  exists x n, find_ord (o_perp n) (o_id n) (ords s) = Some x /\
    o_owner n = o_owner x /\ o_den n = o_den x /\ o_amt n = o_amt x /\
    s' = mkS (bk s) (replace_ord n (ords s)) (nsid s) (npid s).
Proof.
  destruct o; try contradiction; intros _; cbn.
  - destruct (_ || _); [discriminate|]. destruct (find_ord false id (ords s)) as [x|] eqn:F; [|discriminate].
    destruct (negb _); [discriminate|].
    intros H. injection H as <-. eexists x, (mkO false _ _ _ _ _ _ _ _ _ _ _). cbn. repeat split; eassumption || reflexivity.
  - destruct (_ || _); [discriminate|]. destruct (find_ord true id (ords s)) as [x|] eqn:F; [|discriminate].
    destruct (negb _); [discriminate|]. destruct (trig =? 0); [discriminate|].
    destruct (_ && _); [discriminate|]. destruct (_ && _); [discriminate|].
    intros H. injection H as <-. eexists x, (mkO true _ _ _ _ _ _ _ _ _ _ _). cbn. repeat split; eassumption || reflexivity.
Qed.

Lemma step_execute_ok fixed s sender sids pids s' : step_gen fixed s (OExecute sender sids pids) = Ok s' ->
  exists s1, exec_list fixed false sids s = Ok s1 /\ exec_list fixed true pids s1 = Ok s'.
Proof.
  cbn. destruct sids, pids; try discriminate; (destruct (_ || _); [discriminate|]); apply bind_ok.
Qed.

Lemma exec_list_cons_ok fixed p id r t s s' : exec_list fixed p ((id, r) :: t) s = Ok s' ->
  exists o s1, find_ord p id (ords s) = Some o /\ exec_one fixed o r s = Ok s1 /\ exec_list fixed p t s1 = Ok s'.
Proof.
  cbn. destruct (id =? 0); [discriminate|]. destruct (find_ord p id (ords s)) as [o|]; [|discriminate].
  intros H. apply bind_ok in H. destruct H as (s1 & H1 & H2). eauto.
Qed.

Definition refused (fixed : bool) (s : state) (o : op) : Prop :=
  (exists e, step_gen fixed s o = Err e) /\ exec_gen fixed s o = s.

Lemma refused_of_err fixed s o e : step_gen fixed s o = Err e -> refused fixed s o.
Proof. intro H. split; eauto. unfold exec_gen, run_tx. rewrite H. reflexivity. Qed.

Definition untrig (o : order) (r : reso) : Prop :=
  match r_price r with
  | None => True
  | Some mp => (o_perp o = false /\ mp = 0) \/ triggered o mp = false
  end.

Definition inner_fails (r : reso) : Prop := match r_inner r with IOk _ => False | _ => True end.

(* one attempt of ExecuteOrders either leaves the state alone or: the trigger is met at a usable price, the
   escrow went back to the owner, the inner call's transfers were applied, and the order is removed (inner call
   ok) or - only without the cache context - stays (inner call failed) *)
Lemma exec_one_ok fixed o r s s' : exec_one fixed o r s = Ok s' ->
  s' = s \/
  ~ untrig o r /\ exists b1 ops b2,
    send (bk s) (esc o) (AUser (o_owner o)) (o_den o) (o_amt o) = Some b1 /\
    apply_xfers (o_owner o) b1 ops = Ok b2 /\
    ((r_inner r = IOk ops /\ s' = mkS b2 (remove_ord (o_perp o) (o_id o) (ords s)) (nsid s) (npid s)) \/
     (fixed = false /\ r_inner r = IErr ops /\ s' = set_bk s b2)).
Proof.
  unfold exec_one, untrig. destruct (r_price r) as [mp|]; [|intros H; injection H; auto].
  destruct (negb (o_perp o) && (mp =? 0)) eqn:G; [intros H; injection H; auto|].
  destruct (triggered o mp) eqn:T; cbn [negb]; [|destruct (o_perp o); [intros H; injection H; auto|discriminate]].
  destruct (send _ _ _ _ _) as [b1|]; [|intros H; injection H; auto].
  assert (P : ~ ((o_perp o = false /\ mp = 0) \/ true = false)).
  { intros [[NP ->]|X]; [rewrite NP in G|]; discriminate. }
  destruct (r_inner r) as [ops|ops|]; [| destruct fixed; [intros H; injection H; auto|] | discriminate];
    intros H; apply bind_ok in H; destruct H as (b2 & A & H); injection H as <-;
    right; (split; [exact P|]); exists b1, ops, b2; repeat split; auto.
Qed.

Lemma exec_one_noop fixed o r s s' : untrig o r \/ (fixed = true /\ inner_fails r) ->
  exec_one fixed o r s = Ok s' -> s' = s.
Proof.
  intros Q E. apply exec_one_ok in E. destruct E as [E|(U & b1 & ops & b2 & _ & _ & I)]; [exact E|].
  exfalso. destruct Q as [Q|[-> IF]]; [exact (U Q)|]. unfold inner_fails in IF.
  destruct I as [[I _]|[I _]]; [rewrite I in IF; exact IF|discriminate I].
Qed.

Lemma exec_list_noop fixed p l : forall s s',
  (forall id r o, In (id, r) l -> find_ord p id (ords s) = Some o -> untrig o r \/ (fixed = true /\ inner_fails r)) ->
  exec_list fixed p l s = Ok s' -> s' = s.
Proof.
  induction l as [|[id r] t IH]; intros s s' H E; [injection E; auto|].
  apply exec_list_cons_ok in E. destruct E as (o & s1 & F & E1 & E).
  apply exec_one_noop in E1; [subst s1|exact (H id r o (or_introl eq_refl) F)].
  apply IH; [|exact E]. intros id' r' o' I. apply H. right. exact I.
Qed.

Lemma execute_noop fixed s sender sids pids :
  (forall (p : bool) id r o, In (id, r) (if p then pids else sids) -> find_ord p id (ords s) = Some o ->
     untrig o r \/ (fixed = true /\ inner_fails r)) ->
  exec_gen fixed s (OExecute sender sids pids) = s.
Proof.
  intros H. unfold exec_gen. apply run_tx_rel; [reflexivity|]. intros s' E.
  apply step_execute_ok in E. destruct E as (s1 & E1 & E2).
  apply exec_list_noop in E1; [subst s1|exact (H false)]. apply exec_list_noop in E2; [auto|exact (H true)].
Qed.

Definition exact_escrow (b : bank) (o : order) : Prop :=
  0 <= o_amt o /\ known_denom (o_den o) = true /\
  forall d, b (esc o) d = if d =? o_den o then o_amt o else 0.

Definition paid_out (b : bank) (o : order) (b1 : bank) : Prop :=
  (forall d, b1 (esc o) d = 0) /\
  (forall d, b1 (AUser (o_owner o)) d = b (AUser (o_owner o)) d + (if d =? o_den o then o_amt o else 0)) /\
  (forall a d, a <> esc o -> a <> AUser (o_owner o) -> b1 a d = b a d).

Lemma esc_not_user o u : esc o <> AUser u.
Proof. unfold esc; destruct (o_perp o); discriminate. Qed.

Lemma send_close b o b1 : exact_escrow b o ->
  send b (esc o) (AUser (o_owner o)) (o_den o) (o_amt o) = Some b1 -> paid_out b o b1.
Proof.
  intros (A & K & X) S.
  destruct (send_some _ _ _ _ _ _ S) as (_ & Fr & Mv & _). destruct (Mv (esc_not_user o _)) as [M1 M2].
  repeat split.
  - intro d. destruct (Z.eqb_spec d (o_den o)) as [->|]; [rewrite M1, X, Z.eqb_refl; lia|].
    rewrite Fr by auto. rewrite X. destruct (Z.eqb_spec d (o_den o)); [contradiction|reflexivity].
  - intro d. destruct (Z.eqb_spec d (o_den o)) as [->|]; [exact M2|]. rewrite Fr by auto. lia.
  - intros a d H1 H2. apply Fr. left; auto.
Qed.

Lemma sweep_close b o : exact_escrow b o -> paid_out b o (sweep b (esc o) (AUser (o_owner o))).
Proof.
  intros (A & K & X). pose proof (esc_not_user o (o_owner o)) as NE.
  assert (forall d, 0 <= b (esc o) d) as NN. { intro d. rewrite X. destruct (d =? o_den o); lia. }
  repeat split.
  - intro d. rewrite sweep_spec by auto. rewrite addr_eqb_refl. destruct (known_denom d) eqn:KD; auto.
    rewrite X. destruct (Z.eqb_spec d (o_den o)); auto. subst. congruence.
  - intro d. rewrite sweep_spec by auto. rewrite (addr_eqb_neq _ _ (not_eq_sym NE)), addr_eqb_refl.
    rewrite X. destruct (Z.eqb_spec d (o_den o)); [subst; rewrite K; reflexivity|]. destruct (known_denom d); lia.
  - intros a d H1 H2. rewrite sweep_spec by auto. rewrite (addr_eqb_neq _ _ H1), (addr_eqb_neq _ _ H2).
    destruct (known_denom d); reflexivity.
Qed.

Lemma cancel_bank_paid p b o b1 : exact_escrow b o -> cancel_bank p b o = Some b1 -> paid_out b o b1.
Proof. intros EX. destruct p; cbn; [apply send_close, EX|intros H; injection H as <-; apply sweep_close, EX]. Qed.

Lemma cancel_bank_some p b o : exact_escrow b o -> exists b1, cancel_bank p b o = Some b1.
Proof.
  intros (A & K & X). destruct p; cbn; [|eauto]. apply send_exact; [exact A|].
  right. rewrite X, Z.eqb_refl. lia.
Qed.

Record WF (s : state) : Prop := mkWF {
  wf_nodup : NoDup (map okey (ords s));
  wf_ids : forall o, In o (ords s) -> o_id o < (if o_perp o then npid s else nsid s);
  wf_fresh : forall d id, (nsid s <= id -> bk s (ASpot id) d = 0) /\ (npid s <= id -> bk s (APerp id) d = 0)
}.

Lemma esc_sum_ext b b' l u d :
  (forall o, In o l -> o_owner o = u -> b' (esc o) d = b (esc o) d) -> esc_sum b' l u d = esc_sum b l u d.
Proof.
  induction l as [|x l IH]; intro H; simpl; auto.
  rewrite IH by (intros; apply H; auto; right; auto).
  destruct (Z.eqb_spec (o_owner x) u); auto. rewrite H; auto. left; auto.
Qed.

Lemma esc_sum_app b l1 l2 u d : esc_sum b (l1 ++ l2) u d = esc_sum b l1 u d + esc_sum b l2 u d.
Proof. induction l1; simpl; auto. rewrite IHl1. lia. Qed.

Lemma esc_sum_replace b n l x u d : NoDup (map okey l) ->
  find_ord (o_perp n) (o_id n) l = Some x -> o_owner n = o_owner x ->
  esc_sum b (replace_ord n l) u d = esc_sum b l u d.
Proof.
  intros ND F OW. destruct (find_ord_some _ _ _ _ F) as (Ix & Px & IDx).
  assert (H : forall y, In y l -> okey y = okey n -> y = x).
  { intros y Iy K. apply (nodup_okey_inj l); auto. rewrite K. unfold okey. congruence. }
  clear - H OW Px IDx. induction l as [|y l IH]; simpl; auto.
  rewrite IH by (intros; apply H; auto; right; auto).
  destruct (key_eqb (o_perp n) (o_id n) y) eqn:K; auto.
  apply key_eqb_okey in K. rewrite (H y (or_introl eq_refl) K), OW.
  replace (esc n) with (esc x) by (unfold esc; rewrite Px, IDx; reflexivity). reflexivity.
Qed.

Lemma esc_sum_remove b o l u d : NoDup (map okey l) -> In o l ->
  esc_sum b (remove_ord (o_perp o) (o_id o) l) u d = esc_sum b l u d - (if o_owner o =? u then b (esc o) d else 0).
Proof.
  intros ND I. induction l as [|x l IH]; [destruct I|].
  pose proof (nodup_okey_inj _ x o ND (or_introl eq_refl) I) as INJ.
  inversion ND as [|? ? NI ND']; subst. unfold remove_ord. cbn.
  destruct (key_eqb (o_perp o) (o_id o) x) eqn:K; cbn.
  - apply key_eqb_okey in K. rewrite <- (INJ K) in *. fold (remove_ord (o_perp x) (o_id x) l).
    rewrite remove_notin by exact NI. lia.
  - destruct I as [->|I]; [rewrite (proj2 (key_eqb_okey _ _ _) eq_refl) in K; discriminate|].
    fold (remove_ord (o_perp o) (o_id o) l). rewrite (IH ND' I). lia.
Qed.

Definition esc_of (p : bool) (id : Z) : addr := if p then APerp id else ASpot id.
Definition is_esc (a : addr) : bool := match a with ASpot _ | APerp _ => true | _ => false end.

Lemma esc_of_inj p id p' id' : esc_of p id = esc_of p' id' -> (p, id) = (p', id').
Proof. destruct p, p'; simpl; intro H; inversion H; auto. Qed.

Lemma esc_inj o o' : esc o = esc o' -> okey o = okey o'.
Proof. apply esc_of_inj. Qed.

Lemma is_esc_of p id : is_esc (esc_of p id) = true.
Proof. destruct p; reflexivity. Qed.

Lemma is_esc_esc o : is_esc (esc o) = true.
Proof. apply is_esc_of. Qed.

Lemma is_esc_cases a : is_esc a = true -> exists p id, a = esc_of p id.
Proof. destruct a; simpl; try discriminate; intros _; [exists false, id | exists true, id]; reflexivity. Qed.

Record Inv (s : state) : Prop := mkInv {
  inv_nodup : NoDup (map okey (ords s));
  inv_ids : forall o, In o (ords s) -> o_id o < (if o_perp o then npid s else nsid s);
  inv_exact : forall o, In o (ords s) -> exact_escrow (bk s) o;
  inv_free : forall p id d, find_ord p id (ords s) = None -> bk s (esc_of p id) d = 0
}.

Lemma inv_wf s : Inv s -> WF s.
Proof.
  intros [ND IDS EX FRE]. constructor; auto.
  intros d id. split; intro H; [apply (FRE false id d)|apply (FRE true id d)];
    apply find_none_iff, ids_fresh; assumption.
Qed.

Definition same_esc (b b' : bank) : Prop := forall a d, is_esc a = true -> b' a d = b a d.

Lemma set_bk_keeps s b' : Inv s -> same_esc (bk s) b' ->
  Inv (set_bk s b') /\ forall u d, b' (AUser u) d = bk s (AUser u) d -> total (set_bk s b') u d = total s u d.
Proof.
  intros [ND IDS EX FRE] SE. split.
  - constructor; simpl; auto.
    + intros o I. destruct (EX o I) as (A & K & X). repeat split; auto. intro d. rewrite SE by apply is_esc_of. apply X.
    + intros p id d F. rewrite SE by apply is_esc_of. apply FRE; auto.
  - intros u d U. unfold total. cbn. rewrite U. f_equal. apply esc_sum_ext. intros x _ _. apply SE, is_esc_of.
Qed.

Lemma esc_not_party v a : is_esc a = true -> party_ok v a = false.
Proof. destruct a; simpl; auto; discriminate. Qed.

Lemma apply_xfers_frame v ops : forall b b', apply_xfers v b ops = Ok b' ->
  forall a d, party_ok v a = false -> b' a d = b a d.
Proof.
  induction ops as [|[[[from to] d0] amt] t IH]; intros b b' H a d N; simpl in H.
  - injection H as <-. reflexivity.
  - destruct (party_ok v from && party_ok v to && (0 <? amt)) eqn:G; [|discriminate].
    apply andb_true_iff in G. destruct G as [G _]. apply andb_true_iff in G. destruct G as [G1 G2].
    destruct (send b from to d0 amt) as [b1|] eqn:S; [|discriminate].
    rewrite (IH _ _ H a d N). destruct (send_some _ _ _ _ _ _ S) as (_ & Fr & _). apply Fr. left.
    split; intros ->; congruence.
Qed.

Lemma set_wallets_frame l : forall b a d, (forall x, In x l -> a <> AUser (fst (fst x))) -> set_wallets b l a d = b a d.
Proof.
  induction l as [|[[u0 d0] v] t IH]; intros b a d N; simpl; [reflexivity|].
  rewrite IH by (intros x Ix; apply N; right; exact Ix). apply bset_other. left. exact (N (u0, d0, v) (or_introl eq_refl)).
Qed.

Lemma set_wallets_esc l b : same_esc b (set_wallets b l).
Proof. intros a d E. apply set_wallets_frame. intros x _ ->. discriminate E. Qed.

Lemma create_gen s n b : WF s -> o_id n = (if o_perp n then npid s else nsid s) ->
  send (bk s) (AUser (o_owner n)) (esc n) (o_den n) (o_amt n) = Some b ->
  let s' := mkS b (ords s ++ [n]) (if o_perp n then nsid s else nsid s + 1) (if o_perp n then npid s + 1 else npid s) in
  (forall u d, total s' u d = total s u d) /\
  (Inv s -> known_denom (o_den n) = true -> Inv s').
Proof.
  intros [ND IDS FR] ID S s'.
  assert (FRESH : ~ In (okey n) (map okey (ords s))) by (apply ids_fresh; [exact IDS|rewrite ID; lia]).
  assert (Z0 : forall d, bk s (esc n) d = 0) by (intro d; unfold esc; rewrite ID; destruct (o_perp n); apply FR; lia).
  destruct (send_some _ _ _ _ _ _ S) as (A & Fr & Mv & _).
  destruct (Mv (fun X => esc_not_user n _ (eq_sym X))) as [M1 M2].
  assert (OT : forall a d, is_esc a = true -> a <> esc n -> b a d = bk s a d).
  { intros a d Ea Na. apply Fr. left. split; [intros ->; discriminate Ea|exact Na]. }
  assert (OLD : forall x d, In x (ords s) -> b (esc x) d = bk s (esc x) d).
  { intros x d I. apply OT; [apply is_esc_esc|]. intros X. apply esc_inj in X. apply FRESH. rewrite <- X. apply in_map, I. }
  split.
  - intros u d. unfold total. cbn. rewrite esc_sum_app. cbn [esc_sum].
    rewrite (esc_sum_ext (bk s) b) by (intros x I _; apply OLD, I).
    destruct (Z.eqb_spec (o_owner n) u) as [<-|EU].
    + destruct (Z.eqb_spec d (o_den n)) as [->|ED]; [rewrite M1, M2, Z0; lia|].
      rewrite !Fr by (right; exact ED). rewrite Z0. lia.
    + rewrite Fr by (left; split; [congruence|apply not_eq_sym, esc_not_user]). lia.
  - intros [_ _ EX FRE] K. constructor; simpl.
    + rewrite map_app. apply NoDup_snoc; assumption.
    + intros x Ix. apply in_app_or in Ix. destruct Ix as [Ix|[<-|[]]].
      * specialize (IDS x Ix). destruct (o_perp x), (o_perp n); lia.
      * rewrite ID. destruct (o_perp n); lia.
    + intros x Ix. apply in_app_or in Ix. destruct Ix as [Ix|[<-|[]]].
      * destruct (EX x Ix) as (A' & K' & X). repeat split; auto. intro d. rewrite OLD; auto.
      * repeat split; auto. intro d. destruct (Z.eqb_spec d (o_den n)) as [->|ED]; [rewrite M2, Z0; lia|].
        rewrite Fr by (right; exact ED). apply Z0.
    + intros p id d F. rewrite find_none_iff, map_app, in_app_iff in F.
      rewrite OT; [|apply is_esc_of|].
      * apply FRE, find_none_iff. tauto.
      * intro X. apply esc_of_inj in X. apply F. right. left. symmetry. exact X.
Qed.

Lemma inv_update s n x : Inv s -> find_ord (o_perp n) (o_id n) (ords s) = Some x ->
  o_den n = o_den x -> o_amt n = o_amt x ->
  Inv (mkS (bk s) (replace_ord n (ords s)) (nsid s) (npid s)).
Proof.
  intros [ND IDS EX FRE] F D A.
  destruct (find_ord_some _ _ _ _ F) as (Ix & Px & IDx).
  constructor; simpl.
  - rewrite keys_replace; auto.
  - intros y Iy. apply in_replace in Iy. destruct Iy as [->|Iy]; auto.
    specialize (IDS x Ix). rewrite Px, IDx in IDS. exact IDS.
  - intros y Iy. apply in_replace in Iy. destruct Iy as [->|Iy]; auto.
    destruct (EX x Ix) as (A' & K' & X). unfold exact_escrow. rewrite D, A. repeat split; auto.
    intro d. replace (esc n) with (esc x); auto. unfold esc. rewrite Px, IDx. reflexivity.
  - intros p id d Fn. apply FRE. rewrite find_none_iff in *. rewrite keys_replace in Fn. exact Fn.
Qed.

Theorem book_step fixed s o s' : WF s -> is_create o \/ is_update o -> step_gen fixed s o = Ok s' ->
  (forall u d, total s' u d = total s u d) /\ (Inv s -> Inv s').
Proof.
  intros W [C|U] E.
  - destruct (create_ok _ _ _ _ C E) as (n & b & ID & K & S & ->).
    destruct (create_gen s n b W ID S) as [T I]. split; auto.
  - destruct (update_ok _ _ _ _ U E) as (x & n & F & OW & D & A & ->). split.
    + intros u d. unfold total. cbn. f_equal. exact (esc_sum_replace _ n _ x u d (wf_nodup s W) F OW).
    + intros I. exact (inv_update s n x I F D A).
Qed.

Lemma close_gen s o b1 : Inv s -> In o (ords s) -> paid_out (bk s) o b1 ->
  let s' := mkS b1 (remove_ord (o_perp o) (o_id o) (ords s)) (nsid s) (npid s) in
  Inv s' /\ forall u d, total s' u d = total s u d.
Proof.
  intros [ND IDS EX FRE] In0 (Z0 & W & R) s'.
  assert (OT : forall a d, is_esc a = true -> a <> esc o -> b1 a d = bk s a d).
  { intros a d E N. apply R; [exact N|]. intros ->. discriminate E. }
  assert (OLD : forall x d, In x (ords s') -> b1 (esc x) d = bk s (esc x) d).
  { intros x d Ix. apply in_remove in Ix. apply OT; [apply is_esc_esc|]. intros X. apply esc_inj in X. tauto. }
  split.
  - constructor; simpl.
    + apply NoDup_map_filter; auto.
    + intros x Ix. apply in_remove in Ix. apply IDS; tauto.
    + intros x Ix. destruct (EX x (proj1 (proj1 (in_remove _ _ _ _) Ix))) as (A & K & X).
      repeat split; auto. intro d. rewrite OLD; auto.
    + intros p id d F.
      destruct (addr_eqb_spec (esc_of p id) (esc o)) as [->|N]; [apply Z0|].
      rewrite find_remove_other in F by (intros X; injection X as -> ->; apply N; reflexivity).
      rewrite OT; [apply FRE, F|apply is_esc_of|exact N].
  - intros u d. unfold total. cbn.
    rewrite (esc_sum_ext (bk s) b1) by (intros x Ix _; apply OLD, Ix).
    rewrite esc_sum_remove by assumption. destruct (EX o In0) as (_ & _ & ->).
    destruct (Z.eqb_spec (o_owner o) u) as [<-|E]; [rewrite W; lia|].
    rewrite R; [lia|apply not_eq_sym, esc_not_user|congruence].
Qed.

Lemma cancel_one_inv s sender p id s' : Inv s -> cancel_one sender p id s = Ok s' ->
  Inv s' /\ forall u d, total s' u d = total s u d.
Proof.
  intros I C. apply cancel_one_ok in C. destruct C as (o & b & _ & F & _ & B & ->).
  destruct (find_ord_some _ _ _ _ F) as (Io & <- & <-).
  apply cancel_bank_paid in B; [|apply (inv_exact s I o Io)].
  exact (close_gen s o b I Io B).
Qed.

Lemma cancel_list_inv sender p ids : forall s s', Inv s -> cancel_list sender p ids s = Ok s' ->
  Inv s' /\ forall u d, total s' u d = total s u d.
Proof.
  induction ids as [|i t IH]; intros s s' I C; [injection C as <-; auto|].
  apply bind_ok in C. destruct C as (s1 & C1 & C).
  destruct (cancel_one_inv _ _ _ _ _ I C1) as [I1 T1]. destruct (IH _ _ I1 C) as [I2 T2].
  split; auto. intros. rewrite T2, T1. reflexivity.
Qed.

Definition no_exec (u : Z) (p : bool) (l : list (Z * reso)) (s : state) : Prop :=
  forall id r o, In (id, r) l -> find_ord p id (ords s) = Some o -> o_owner o = u -> untrig o r \/ inner_fails r.

Lemma exec_one_inv s o r s' : Inv s -> In o (ords s) -> exec_one true o r s = Ok s' ->
  Inv s' /\ incl (ords s') (ords s) /\
  forall u, (o_owner o = u -> untrig o r \/ inner_fails r) -> forall d, total s' u d = total s u d.
Proof.
  intros I Io E. destruct (exec_one_ok _ _ _ _ _ E) as [->|(U & b1 & ops & b2 & S & A & [[IO ->]|[X _]])];
    [split; [exact I|split; [apply incl_refl|reflexivity]]| |discriminate X].
  apply send_close in S; [|apply (inv_exact s I o Io)].
  pose proof (apply_xfers_frame _ _ _ _ A) as OU.
  destruct (close_gen s o b1 I Io S) as [I1 T1].
  destruct (set_bk_keeps _ b2 I1 (fun a d E => OU a d (esc_not_party _ a E))) as [I' T].
  split; [exact I'|]. split.
  - intros x Ix. apply in_remove in Ix. apply Ix.
  - intros u Q d. rewrite <- T1. apply T, OU, Z.eqb_neq. intros EU.
    destruct (Q (eq_sym EU)) as [X|X]; [exact (U X)|]. unfold inner_fails in X. rewrite IO in X. exact X.
Qed.

Lemma exec_list_inv p l : forall s s', Inv s -> exec_list true p l s = Ok s' ->
  Inv s' /\ incl (ords s') (ords s) /\ forall u, no_exec u p l s -> forall d, total s' u d = total s u d.
Proof.
  induction l as [|[id r] t IH]; intros s s' I E.
  - injection E as <-. split; [auto | split; [apply incl_refl | reflexivity]].
  - apply exec_list_cons_ok in E. destruct E as (o & s1 & F & E1 & E).
    destruct (exec_one_inv s o r s1 I (proj1 (find_ord_some _ _ _ _ F)) E1) as (I1 & S1 & T1).
    destruct (IH s1 s' I1 E) as (I2 & S2 & T2).
    split; [auto | split].
    + exact (incl_tran S2 S1).
    + intros u Q d. rewrite T2, T1; auto.
      * intro OW. exact (Q id r o (or_introl eq_refl) F OW).
      * intros id' r' o' In' F' OW. exact (Q id' r' o' (or_intror In') (find_incl _ _ _ _ _ (inv_nodup s I) S1 F') OW).
Qed.

(* the one excluded input: a plain transfer to an escrow account *)
Definition op_ok (o : op) : bool := match o with OSend _ to _ _ => negb (is_esc to) | _ => true end.
Definition no_escrow_transfers (h : list op) : Prop := Forall (fun o => op_ok o = true) h.

Definition quiet (s : state) (o : op) (u : Z) : Prop :=
  match o with
  | OCreateSpot owner typ _ _ _ _ _ _ => typ = 3 -> owner <> u            (* a market buy of u is filled at once *)
  | OExecute _ sids pids => no_exec u false sids s /\ no_exec u true pids s (* no order of u is executed *)
  | OSend from to _ _ => from <> u /\ to <> AUser u                        (* plain transfers of / to u *)
  | OEnv l => forall x, In x l -> fst (fst x) <> u                         (* settlement of u's queued swaps *)
  | _ => True
  end.

Lemma step_inv s o s' : Inv s -> op_ok o = true -> step_gen true s o = Ok s' ->
  Inv s' /\ forall u, quiet s o u -> forall d, total s' u d = total s u d.
Proof.
  intros I OK E.
  assert (ALL : Inv s' /\ (forall u d, total s' u d = total s u d) ->
                 Inv s' /\ forall u, quiet s o u -> forall d, total s' u d = total s u d).
  { intros [I' T]. split; auto. }
  assert (BOOK : is_create o \/ is_update o -> Inv s' /\ forall u d, total s' u d = total s u d).
  { intros B. destruct (book_step true s o s' (inv_wf s I) B E) as [T I']. auto. }
  destruct o.
  - destruct (Z.eq_dec typ 3) as [->|T3].
    + (* market buy: the inner swap's transfers *)
      cbn in E. destruct (_ || _); [discriminate|]. destruct inn as [ops| |]; try discriminate.
      apply bind_ok in E. destruct E as (b & A & E). injection E as <-.
      pose proof (apply_xfers_frame _ _ _ _ A) as OU.
      destruct (set_bk_keeps s b I (fun a d E => OU a d (esc_not_party _ a E))) as [I' T].
      split; [exact I'|]. intros u Q d. apply T, OU, Z.eqb_neq. intros ->. exact (Q eq_refl eq_refl).
    + apply ALL, BOOK. left. exact T3.
  - apply ALL, BOOK. right. exact Logic.I.
  - apply ALL. exact (cancel_one_inv _ _ _ _ _ I E).
  - apply ALL. cbn in E. destruct ids; [discriminate|]. destruct (existsb _ _); [discriminate|].
    exact (cancel_list_inv _ _ _ _ _ I E).
  - apply ALL, BOOK. left. exact Logic.I.
  - apply ALL, BOOK. right. exact Logic.I.
  - apply ALL. exact (cancel_one_inv _ _ _ _ _ I E).
  - apply ALL. cbn in E. destruct ids; [discriminate|]. destruct (existsb _ _); [discriminate|].
    exact (cancel_list_inv _ _ _ _ _ I E).
  - apply step_execute_ok in E. destruct E as (s1 & E1 & E2).
    destruct (exec_list_inv false sids s s1 I E1) as (I1 & S1 & T1).
    destruct (exec_list_inv true pids s1 s' I1 E2) as (I2 & S2 & T2).
    split; auto. intros u [Q1 Q2] d. rewrite T2, T1; auto.
    intros id r o In' F' OW. exact (Q2 id r o In' (find_incl _ _ _ _ _ (inv_nodup s I) S1 F') OW).
  - (* bank send to a user or an outside account *)
    cbn in E. destruct (_ || _); [discriminate|].
    destruct (send _ _ _ _ _) as [b|] eqn:S; [|discriminate]. injection E as <-.
    cbn in OK. apply negb_true_iff in OK. destruct (send_some _ _ _ _ _ _ S) as (_ & Fr & _).
    destruct (set_bk_keeps s b I) as [I' T].
    { intros a d' Ea. apply Fr. left. split; intros ->; [discriminate Ea|congruence]. }
    split; [exact I'|]. intros u [Q1 Q2] d'. apply T, Fr. left. split; congruence.
  - (* end of block: wallets as settled by other modules *)
    injection E as <-. destruct (set_bk_keeps s _ I (set_wallets_esc l (bk s))) as [I' T].
    split; [exact I'|]. intros u Q d. apply T, set_wallets_frame. intros x Ix X. injection X as ->. exact (Q x Ix eq_refl).
Qed.

Theorem inv_exec s o : Inv s -> op_ok o = true -> Inv (exec_gen true s o).
Proof.
  intros I OK. unfold exec_gen. apply (run_tx_rel (fun _ s' => Inv s')); [exact I|].
  intros s' E. apply (step_inv _ _ _ I OK E).
Qed.

Theorem inv_run : forall h s, Inv s -> no_escrow_transfers h -> Inv (run_gen true s h).
Proof.
  intros h s I NE. apply (fold_inv Inv (fun o => op_ok o = true)); auto. intros s0 o OK I0. exact (inv_exec s0 o I0 OK).
Qed.

Lemma inv_init b : (forall a d, is_esc a = true -> b a d = 0) -> Inv (init_state b).
Proof.
  intro Z0. constructor; simpl.
  - constructor.
  - intros o [].
  - intros o [].
  - intros p id d _. apply Z0, is_esc_of.
Qed.

Lemma inv_init_wallets l : Inv (init_state (set_wallets (fun _ _ => 0) l)).
Proof. apply inv_init. intros a d E. rewrite set_wallets_esc; auto. Qed.

Theorem escrow_exact_history : forall h s, Inv s -> no_escrow_transfers h ->
  forall o, In o (ords (run_gen true s h)) -> exact_escrow (bk (run_gen true s h)) o.
Proof. intros h s I NE. exact (inv_exact _ (inv_run h s I NE)). Qed.

Theorem conserved : forall s o u, Inv s -> op_ok o = true -> quiet s o u ->
  forall d, total (exec_gen true s o) u d = total s u d.
Proof.
  intros s o u I OK Q d. unfold exec_gen. apply (run_tx_rel (fun s s' => total s' u d = total s u d)); [reflexivity|].
  intros s' E. apply (step_inv _ _ _ I OK E); exact Q.
Qed.

Fixpoint quiet_run (s : state) (h : list op) (u : Z) : Prop :=
  match h with
  | [] => True
  | o :: t => quiet s o u /\ quiet_run (exec_gen true s o) t u
  end.

(* a perpetual order of user 0 with 14000000000 uusdc collateral, and two execute requests of a third party *)
Definition w_user0 : bank := set_wallets (fun _ _ => 0) [(0, 0, 1000000000000); (0, 1, 1000000000000)].
Definition w_s1 : state :=
  run (init_state w_user0) [OCreatePerp 0 1 5000000000000000000 0 14000000000 20000000000000000000 1 1 0].
(* perpetual.Open moved the collateral into the pool and then returned an error (pool health) *)
Definition w_dirty : op :=
  OExecute 2 [] [(1, mkR (Some 5000000000000000000) (IErr [(AUser 0, AExt 0, 0, 14000000000)]))].
(* perpetual.Open returned an error before moving anything *)
Definition w_clean : op := OExecute 2 [] [(1, mkR (Some 5000000000000000000) (IErr []))].

(* a concrete history: create, create for another owner, update, create, a third party executes the
   OTHER owner's order, batch cancel *)
Definition ex_s0 : state :=
  init_state (set_wallets (fun _ _ => 0) [(0, 0, 1000000000000); (0, 1, 1000000000000); (1, 0, 1000000000000)]).
Definition ex_h : list op :=
  [ OCreateSpot 0 1 1 0 6000000000000000000 1 1000000 (IErr []);
    OCreatePerp 1 1 5000000000000000000 0 10000000 20000000000000000000 1 1 0;
    OUpdateSpot 0 1 1 0 7000000000000000000;
    OCreateSpot 0 0 1 0 4000000000000000000 1 2000000 (IErr []);
    OExecute 2 [] [(1, mkR (Some 4500000000000000000) (IOk [(AUser 1, AExt 0, 0, 10000000)]))];
    OCancelSpots 0 [2; 1] ].
