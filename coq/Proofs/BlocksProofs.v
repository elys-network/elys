(* C18, the block pipeline of Models/Blocks.v over the generated table Generated/BlockerSurface.v: a table whose every
   failure point is harmless processes every block, and the guards hold in every reachable environment. *)
From Coq Require Import String List Bool ZArith Lia.
From Elys Require Import Base.Res Models.Blocks Generated.BlockerSurface.
Import ListNotations.
Open Scope string_scope.

Lemma run_points_ok : forall holds kn b oc ps,
  (forall p, In p ps -> point_res holds kn b p (oc p) = Ok tt) -> run_points holds kn b oc ps = Ok tt.
Proof.
  intros holds kn b oc ps. induction ps as [|p r IH]; intros H; [reflexivity|].
  cbn [run_points]. rewrite (H p (or_introl eq_refl)). apply IH. intros q Hq. apply H. right. exact Hq.
Qed.

Section Total.
  Context {S : Type}.
  Variable step : blocker -> S -> S.
  Variable oc : blocker -> fpoint -> outcome.
  Variable holds : rclass -> bool.
  Variable kn : bool.

  Definition good (b : blocker) : Prop := forall s, run_blocker step oc holds kn b s = Ok (step b s).

  Lemma run_list_good : forall l s, Forall good l -> exists s', run_list step oc holds kn l s = Ok s'.
  Proof.
    induction l as [|b r IH]; intros s H; [exists s; reflexivity|].
    inversion H as [|? ? Hb Hr]; subst. cbn [run_list]. rewrite Hb. apply IH. exact Hr.
  Qed.

  Lemma run_begin_good : forall tbl l s, Forall good tbl -> Forall good l -> exists s', run_begin step oc holds kn tbl l s = Ok s'.
  Proof.
    intros tbl l. induction l as [|b r IH]; intros s Ht H; [exists s; reflexivity|].
    inversion H as [|? ? Hb Hr]; subst. cbn [run_begin]. unfold run_begin_one.
    destruct (is_epochs_begin b).
    - destruct (run_list_good (hooks_of tbl) s) as [s1 E1].
      { apply Forall_app. split; exact (incl_Forall (incl_filter _ tbl) Ht). }
      rewrite E1. cbn [hook_wrap]. rewrite Hb. apply IH; assumption.
    - rewrite Hb. apply IH; assumption.
  Qed.

  (* A table every point of which is accounted for by a criterion [Q] that makes the point harmless: block
     processing succeeds for every state and every state transformer of the blockers. *)
  Theorem pipeline_pointwise : forall (Q : blocker -> fpoint -> bool) tbl,
    forallb (fun b => negb (b_elys b) || b_trivial b || forallb (Q b) (b_points b)) tbl = true ->
    (forall b p o, Q b p = true -> point_res holds kn b p o = Ok tt) ->
    forall s, exists s', run_block step oc holds kn tbl s = Ok s'.
  Proof.
    intros Q tbl Ht HQ s.
    assert (Hg : Forall good tbl).
    { apply Forall_forall. intros b Hb s0. rewrite forallb_forall in Ht. specialize (Ht b Hb). unfold run_blocker.
      destruct (negb (b_elys b) || b_trivial b); [reflexivity|]. cbn [orb] in Ht. rewrite forallb_forall in Ht.
      rewrite run_points_ok; [reflexivity|]. intros p Hp. apply HQ, Ht, Hp. }
    unfold run_block.
    destruct (run_begin_good tbl (filter (is_phase PBegin) tbl) s Hg (incl_Forall (incl_filter _ tbl) Hg)) as [s1 E1].
    rewrite E1. apply run_list_good. exact (incl_Forall (incl_filter _ tbl) Hg).
  Qed.
End Total.

Lemma point_res_safe : forall holds kn b p o,
  point_safe (b_propagates b) p = true -> point_res holds kn b p o = Ok tt.
Proof. intros holds kn b p o Hs. unfold point_res. rewrite Hs. destruct o; reflexivity. Qed.

Lemma find_some_class : forall l b p, in_list l b p = true -> exists c, review_class l b p = Some c.
Proof.
  intros l b p H. unfold review_class.
  destruct (find (review_matches b p) l) eqn:E; [eexists; reflexivity|].
  apply existsb_exists in H. destruct H as [r [Hin Hm]].
  rewrite (find_none _ _ E r Hin) in Hm. discriminate.
Qed.

Lemma point_res_ok : forall holds b p o,
  (forall c, holds c = true) -> point_ok b p = true -> point_res holds true b p o = Ok tt.
Proof.
  intros holds b p o Hh H. unfold point_res, point_ok in *. destruct o; [reflexivity|].
  (* the lists stay abstract: nothing below depends on what has been reviewed *)
  revert H. generalize reviewed, known_unsafe. intros l l' H.
  destruct (point_safe (b_propagates b) p); [reflexivity|]. cbn [orb] in H.
  destruct (in_list l b p) eqn:Er.
  - destruct (find_some_class _ _ _ Er) as [c ->]. rewrite Hh. reflexivity.
  - cbn [orb] in H. rewrite H. destruct (review_class l b p); [rewrite Hh|]; reflexivity.
Qed.

Lemma guard_tbpy_holds : forall e, param_validate e = true -> guard_tbpy e = true.
Proof.
  intros e H. apply andb_true_iff in H. destruct H as [H0 H1]. apply Z.ltb_lt in H0.
  unfold guard_tbpy, to_int64. rewrite H1. apply negb_true_iff, Z.eqb_neq. lia.
Qed.

Lemma zsum_pos_pos : forall l, forallb (fun v => (0 <? v)%Z) l = true -> forall v, In v l -> (0 < zsum_pos l)%Z.
Proof.
  induction l as [|x r IH]; intros H v Hin; [destruct Hin|].
  cbn [forallb] in H. apply andb_true_iff in H. destruct H as [Hx Hr]. apply Z.ltb_lt in Hx.
  cbn [zsum_pos]. destruct r as [|y r']; [cbn; lia|]. specialize (IH Hr y (or_introl eq_refl)). lia.
Qed.

Lemma guard_valsum_holds : forall e, forallb (fun v => (0 <? v)%Z) (e_vals e) = true -> guard_valsum e = true.
Proof.
  intros e H. apply forallb_forall. intros v Hin. pose proof (zsum_pos_pos _ H v Hin).
  apply negb_true_iff, Z.eqb_neq. lia.
Qed.

Lemma guard_funding_holds : forall e, (0 <= e_long_oi e)%Z -> (0 <= e_short_oi e)%Z -> guard_funding e = true.
Proof.
  intros e Hl Hs. unfold guard_funding, funding_divisor.
  destruct (Z.eqb_spec (e_long_oi e) 0); [reflexivity|]. destruct (Z.eqb_spec (e_short_oi e) 0); [reflexivity|].
  apply negb_true_iff, Z.eqb_neq. lia.
Qed.

Lemma guard_interest_holds : forall e, (e_first_stored e <= e_height e)%Z -> guard_interest_blocks e = true.
Proof.
  intros e H. unfold guard_interest_blocks, interest_blocks. cbn [forallb].
  destruct (Z.eqb_spec (e_start_block e) (e_height e)); destruct (Z.ltb_spec (e_start_block e) (e_first_stored e));
    rewrite ?andb_true_r; try reflexivity; rewrite ?andb_true_iff, !negb_true_iff, !Z.eqb_neq; lia.
Qed.

Lemma guard_stacked_holds : forall e, (0 <= e_reserve e)%Z -> guard_stacked e = true.
Proof.
  intros e H. unfold guard_stacked, stacked_divisor. destruct (e_reserve e =? 0)%Z eqn:E; [reflexivity|].
  rewrite E. reflexivity.
Qed.

Lemma guard_duration_holds : forall e, guard_duration e = true.
Proof.
  intros e. unfold guard_duration, apr_duration. destruct (Z.eqb_spec (e_ts_first e) (e_ts_last e)); [reflexivity|].
  apply negb_true_iff, Z.eqb_neq. lia.
Qed.

Lemma guard_product_holds : forall e, guard_product e = true.
Proof.
  intros e. unfold guard_product. destruct (Z.eqb_spec (e_tvl e * e_multiplier e) 0); [reflexivity|].
  apply negb_true_iff, Z.eqb_neq. intros E. rewrite E in *. contradiction.
Qed.

Lemma reach_guards : forall e, reach e -> guard_tbpy e = true /\ local_guards e = true.
Proof.
  intros e (Hp & Hv & Hl & Hs & Hf & Hr). split; [apply guard_tbpy_holds; exact Hp|].
  unfold local_guards.
  rewrite (guard_valsum_holds e Hv), (guard_funding_holds e Hl Hs), (guard_interest_holds e Hf),
          (guard_stacked_holds e Hr), (guard_duration_holds e), (guard_product_holds e). reflexivity.
Qed.

Lemma holds_in_all : forall e assume, reach e -> (forall c, assumed_class c = true -> assume c = true) ->
  forall c, holds_in e assume c = true.
Proof.
  intros e assume Hr Ha c. destruct (reach_guards e Hr) as [Hp Hl].
  destruct c; cbn [holds_in]; try assumption; try reflexivity; apply Ha; reflexivity.
Qed.

Lemma sites_ok : forallb blocker_ok blockers = true.
Proof. vm_compute. reflexivity. Qed.

(* the blockers that are not safe by syntax alone (they rely on the reviewed list) *)
Definition unsafe_names (tbl : list blocker) : list (string * phase) :=
  map (fun b => (b_module b, b_phase b)) (filter (fun b => negb (blocker_safe b)) tbl).

(* the Elys blockers (hooks aside) whose error reaches the module manager *)
Definition propagating (tbl : list blocker) : list (string * phase) :=
  map (fun b => (b_module b, b_phase b))
      (filter (fun b => b_elys b && negb (b_trivial b) && b_propagates b && (phase_eqb (b_phase b) PBegin || phase_eqb (b_phase b) PEnd)) tbl).

Definition entry_used (tbl : list blocker) (r : review) : bool :=
  existsb (fun b => existsb (fun p => review_matches b p r) (b_points b)) tbl.

(* non-vacuity: a concrete reachable environment *)
Definition env0 : env := mkEnv 6307200%Z 250000000000000000%Z [1000000%Z; 5%Z] 10%Z 3%Z 100%Z 90%Z 95%Z 0%Z 10%Z 20%Z 5%Z 1%Z.
