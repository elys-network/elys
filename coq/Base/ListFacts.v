(* Lists as the models use them: [upd_nth] with [nth], sums of a projection ([zsum (map f l)]),
   and [filter] against [forallb]. *)
From Coq Require Import ZArith List Bool Lia.
From Elys Require Import Base.Res.
Import ListNotations.
Open Scope Z_scope.

Lemma length_upd_nth {A} n (x : A) l : length (upd_nth n x l) = length l.
Proof. revert n; induction l as [|y l IH]; intros [|n]; cbn; auto. Qed.

Lemma nth_upd_nth_same {A} n (x d : A) l : (n < length l)%nat -> nth n (upd_nth n x l) d = x.
Proof. revert n; induction l as [|y l IH]; intros [|n] H; cbn in *; try lia; auto. apply IH; lia. Qed.

Lemma nth_upd_nth_other {A} n m (x d : A) l : n <> m -> nth m (upd_nth n x l) d = nth m l d.
Proof. revert n m; induction l as [|y l IH]; intros [|n] [|m] H; cbn; auto; congruence. Qed.

Lemma upd_nth_oob {A} n (x : A) l : (length l <= n)%nat -> upd_nth n x l = l.
Proof. revert n; induction l as [|y l IH]; intros [|n] H; cbn in *; try lia; auto. f_equal. apply IH. lia. Qed.

Lemma Forall_upd_nth {A} (P : A -> Prop) n x l : Forall P l -> P x -> Forall P (upd_nth n x l).
Proof. intros Hl Hx. revert n; induction Hl; intros [|n]; cbn; auto. Qed.

Lemma Forall_nth_dflt {A} (P : A -> Prop) n l d : Forall P l -> P d -> P (nth n l d).
Proof. intros Hl Hd. revert n; induction Hl; intros [|n]; cbn; auto. Qed.

Lemma map_upd_nth_same {A B} (f : A -> B) n x l d : (n < length l)%nat -> f x = f (nth n l d) ->
  map f (upd_nth n x l) = map f l.
Proof.
  revert n; induction l as [|y l IH]; intros [|n] H E; cbn in *; try lia; f_equal; auto. apply IH; [lia|exact E].
Qed.

Lemma zsum_app l1 l2 : zsum (l1 ++ l2) = zsum l1 + zsum l2.
Proof. induction l1 as [|x l1 IH]; cbn; lia. Qed.

Lemma zsum_map_upd_nth {A} (f : A -> Z) n x l d :
  (n < length l)%nat -> zsum (map f (upd_nth n x l)) = zsum (map f l) - f (nth n l d) + f x.
Proof. revert n; induction l as [|y l IH]; intros [|n] H; cbn in *; try lia. rewrite IH by lia. lia. Qed.

Lemma zsum_map_nonneg {A} (f : A -> Z) l : Forall (fun x => 0 <= f x) l -> 0 <= zsum (map f l).
Proof. induction 1; cbn; lia. Qed.

Lemma zsum_map_ge_nth {A} (f : A -> Z) n l d :
  Forall (fun x => 0 <= f x) l -> (n < length l)%nat -> f (nth n l d) <= zsum (map f l).
Proof.
  intros Hl. revert n; induction Hl as [|y l Hy Hl IH]; intros [|n] H; cbn in *; try lia.
  - pose proof (zsum_map_nonneg f l Hl). lia.
  - specialize (IH n ltac:(lia)). lia.
Qed.

Lemma forallb_filter_nil {A} (p : A -> bool) l : forallb p l = true <-> filter (fun x => negb (p x)) l = [].
Proof.
  induction l as [|x l IH]; cbn; [tauto|]. destruct (p x); cbn; [exact IH|]. split; discriminate.
Qed.
