(* Total functions with point update; sums over explicit finite key lists. No extensionality:
   all statements are pointwise. *)
From Coq Require Import ZArith List Arith Lia Bool.
Import ListNotations.
Open Scope Z_scope.

Definition upd (f : nat -> Z) (k : nat) (v : Z) : nat -> Z :=
  fun x => if Nat.eqb x k then v else f x.
Definition upd2 (f : nat -> nat -> Z) (a b : nat) (v : Z) : nat -> nat -> Z :=
  fun x y => if Nat.eqb x a && Nat.eqb y b then v else f x y.

Lemma upd_same f k v : upd f k v k = v.
Proof. unfold upd. rewrite Nat.eqb_refl. reflexivity. Qed.
Lemma upd_other f k v x : x <> k -> upd f k v x = f x.
Proof. intros H. unfold upd. destruct (Nat.eqb_spec x k); [contradiction|reflexivity]. Qed.
Lemma upd2_same f a b v : upd2 f a b v a b = v.
Proof. unfold upd2. rewrite !Nat.eqb_refl. reflexivity. Qed.
Lemma upd2_other f a b v x y : (x <> a \/ y <> b) -> upd2 f a b v x y = f x y.
Proof.
  intros H. unfold upd2. destruct (Nat.eqb_spec x a); destruct (Nat.eqb_spec y b); cbn; try reflexivity.
  destruct H; contradiction.
Qed.

(* a point update read as a sum: the form [sumf_point] expects *)
Lemma upd_add f k c x : upd f k (f k + c) x = f x + if Nat.eqb x k then c else 0.
Proof. unfold upd. destruct (Nat.eqb_spec x k) as [->|]; lia. Qed.

Lemma upd2_add f a b c x y :
  upd2 f a b (f a b + c) x y = f x y + if Nat.eqb x a && Nat.eqb y b then c else 0.
Proof. unfold upd2. destruct (Nat.eqb_spec x a) as [->|]; destruct (Nat.eqb_spec y b) as [->|]; cbn; lia. Qed.

Fixpoint sumf (f : nat -> Z) (ks : list nat) : Z :=
  match ks with [] => 0 | k :: r => f k + sumf f r end.

Lemma sumf_upd_notin f k v ks : ~ In k ks -> sumf (upd f k v) ks = sumf f ks.
Proof.
  induction ks as [|x r IH]; intros H; cbn; [reflexivity|].
  rewrite upd_other by (intros ->; apply H; left; reflexivity).
  rewrite IH; [reflexivity|]. intros Hin; apply H; right; exact Hin.
Qed.

Lemma sumf_upd_in f k v ks : NoDup ks -> In k ks -> sumf (upd f k v) ks = sumf f ks - f k + v.
Proof.
  induction ks as [|x r IH]; intros ND Hin; [destruct Hin|].
  inversion ND as [|? ? Hx NDr]; subst. cbn. destruct (Nat.eq_dec x k) as [->|Ne].
  - rewrite upd_same, sumf_upd_notin by exact Hx. lia.
  - rewrite upd_other by exact Ne. destruct Hin as [E|Hin]; [contradiction|].
    rewrite IH by assumption. lia.
Qed.

Lemma sumf_ext f g ks : (forall k, In k ks -> f k = g k) -> sumf f ks = sumf g ks.
Proof.
  induction ks as [|x r IH]; intros H; cbn; [reflexivity|].
  rewrite (H x) by (left; reflexivity). rewrite IH; [reflexivity|].
  intros k Hk. apply H. right. exact Hk.
Qed.

Lemma sumf_zero ks : sumf (fun _ => 0) ks = 0.
Proof. induction ks; cbn; lia. Qed.

Lemma sumf_nonneg f ks : (forall k, In k ks -> 0 <= f k) -> 0 <= sumf f ks.
Proof.
  induction ks as [|x r IH]; intros H; cbn; [lia|].
  specialize (H x (or_introl eq_refl)) as Hx. specialize (IH (fun k Hk => H k (or_intror Hk))). lia.
Qed.

Lemma sumf_point f g k c ks : NoDup ks -> In k ks ->
  (forall x, g x = f x + if Nat.eqb x k then c else 0) -> sumf g ks = sumf f ks + c.
Proof.
  intros ND Hin Hg. rewrite (sumf_ext g (upd f k (f k + c))).
  - rewrite sumf_upd_in by assumption. lia.
  - intros x _. rewrite Hg. unfold upd. destruct (Nat.eqb_spec x k) as [->|]; lia.
Qed.
