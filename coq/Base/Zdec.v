(* cosmossdk.io/math v1.4.0: Int = Z (big.Int), LegacyDec = Z scaled by 10^18 (dec.go).
   Every operation below computes the same integer as the Go method of the same name; this is
   checked on every run by the differential test TestZdec of the harness (pure, ~10^4 cases).
   Range panics (|x| > 2^256 for Int, 2^256*10^18 for LegacyDec... "Int overflow") are NOT modelled
   here: models that need them carry an explicit in-range side condition.
   big.Int.Quo / QuoRem truncate toward zero = Z.quot / Z.rem; division by zero panics in Go:
   callers must guard (the functions here return Z.quot _ 0 = 0, never used unguarded). *)
From Coq Require Import ZArith Lia.
Open Scope Z_scope.

Definition PREC : Z := 1000000000000000000.      (* 10^18 *)
Definition HALF : Z := 500000000000000000.       (* 5 * 10^17 *)

(* chopPrecisionAndRound: banker's rounding on the absolute value *)
Definition chop_round_nonneg (d : Z) : Z :=
  let q := Z.quot d PREC in
  let r := Z.rem d PREC in
  if r =? 0 then q
  else if r <? HALF then q
  else if HALF <? r then q + 1
  else if Z.even q then q else q + 1.

Definition chop_round (d : Z) : Z :=
  if d <? 0 then - chop_round_nonneg (- d) else chop_round_nonneg d.

(* chopPrecisionAndTruncate *)
Definition chop_trunc (d : Z) : Z := Z.quot d PREC.

(* chopPrecisionAndRoundUp *)
Definition chop_round_up (d : Z) : Z :=
  if d <? 0 then - Z.quot (- d) PREC
  else if Z.rem d PREC =? 0 then Z.quot d PREC else Z.quot d PREC + 1.

Definition dec_of_int (i : Z) : Z := i * PREC.                  (* LegacyNewDecFromInt *)
Definition dmul (a b : Z) : Z := chop_round (a * b).             (* Mul *)
Definition dmul_trunc (a b : Z) : Z := chop_trunc (a * b).       (* MulTruncate *)
Definition dmul_round_up (a b : Z) : Z := chop_round_up (a * b). (* MulRoundUp *)
Definition dmul_int (a i : Z) : Z := a * i.                      (* MulInt / MulInt64 *)
Definition dquo (a b : Z) : Z := chop_round (Z.quot (a * PREC * PREC) b).   (* Quo *)
Definition dquo_trunc (a b : Z) : Z := Z.quot (a * PREC) b.                  (* QuoTruncate *)
Definition dquo_round_up (a b : Z) : Z :=                                     (* QuoRoundUp *)
  let n := a * PREC in
  let q := Z.quot n b in let r := Z.rem n b in
  (* as coded: d.IsNegative() is read AFTER d.i was overwritten by the quotient *)
  if ((0 <? r) && (Bool.eqb (q <? 0) (b <? 0)) || (r <? 0) && negb (Bool.eqb (q <? 0) (b <? 0)))%bool
  then q + 1 else q.
Definition dquo_int (a i : Z) : Z := Z.quot a i.                 (* QuoInt / QuoInt64 *)
Definition round_int (a : Z) : Z := chop_round a.                (* RoundInt *)
Definition trunc_int (a : Z) : Z := chop_trunc a.                (* TruncateInt *)
Definition trunc_dec (a : Z) : Z := chop_trunc a * PREC.         (* TruncateDec *)
Definition dceil (a : Z) : Z :=                                  (* Ceil *)
  let q := Z.quot a PREC in let r := Z.rem a PREC in
  if 0 <? r then (q + 1) * PREC else q * PREC.

(* All bounds below are stated cleared of divisions, over the raw scaled integers, so that [lia]/[nia] can use
   them with PREC and HALF as atoms. *)

Lemma PREC_pos : 0 < PREC. Proof. reflexivity. Qed.
Lemma HALF_PREC : 2 * HALF = PREC. Proof. reflexivity. Qed.

Lemma chop_round_nonneg_cases d : 0 <= d ->
  (chop_round_nonneg d = Z.quot d PREC /\ Z.rem d PREC <= HALF) \/
  (chop_round_nonneg d = Z.quot d PREC + 1 /\ HALF <= Z.rem d PREC).
Proof.
  intros Hd. unfold chop_round_nonneg. cbv zeta.
  assert (Hr : 0 <= Z.rem d PREC) by (apply Z.rem_nonneg; [discriminate|exact Hd]).
  destruct (Z.eqb_spec (Z.rem d PREC) 0) as [->|_]; [left; split; [reflexivity|discriminate]|].
  destruct (Z.ltb_spec (Z.rem d PREC) HALF); [left; split; [reflexivity|lia]|].
  destruct (Z.ltb_spec HALF (Z.rem d PREC)); [right; split; [reflexivity|lia]|].
  destruct (Z.even (Z.quot d PREC)); [left|right]; (split; [reflexivity|lia]).
Qed.

Lemma chop_round_nonneg_eq d : 0 <= d -> chop_round d = chop_round_nonneg d.
Proof. intros H. unfold chop_round. destruct (Z.ltb_spec d 0); [lia|reflexivity]. Qed.

Lemma chop_round_bounds d : 0 <= d ->
  d - HALF <= chop_round d * PREC <= d + HALF /\ 0 <= chop_round d.
Proof.
  intros Hd. rewrite chop_round_nonneg_eq by exact Hd.
  pose proof (Z.quot_rem' d PREC). pose proof HALF_PREC.
  assert (0 <= Z.rem d PREC < PREC) by (apply Z.rem_bound_pos; [lia|reflexivity]).
  assert (0 <= Z.quot d PREC) by (apply Z.quot_pos; [lia|reflexivity]).
  destruct (chop_round_nonneg_cases d Hd) as [[-> ?]|[-> ?]]; lia.
Qed.

Lemma chop_trunc_bounds d : 0 <= d -> d - PREC < chop_trunc d * PREC <= d /\ 0 <= chop_trunc d.
Proof.
  intros Hd. unfold chop_trunc. pose proof (Z.quot_rem' d PREC).
  assert (0 <= Z.rem d PREC < PREC) by (apply Z.rem_bound_pos; [lia|reflexivity]).
  assert (0 <= Z.quot d PREC) by (apply Z.quot_pos; [lia|reflexivity]).
  lia.
Qed.

Lemma chop_round_mono a b : 0 <= a <= b -> chop_round a <= chop_round b.
Proof.
  intros H. rewrite !chop_round_nonneg_eq by lia.
  pose proof (Z.quot_rem' a PREC). pose proof (Z.quot_rem' b PREC). pose proof HALF_PREC.
  assert (0 <= Z.rem a PREC < PREC) by (apply Z.rem_bound_pos; [lia|reflexivity]).
  assert (0 <= Z.rem b PREC < PREC) by (apply Z.rem_bound_pos; [lia|reflexivity]).
  assert (Hq : Z.quot a PREC <= Z.quot b PREC) by (apply Z.quot_le_mono; [reflexivity|lia]).
  (* with equal quotients and remainders both HALF, a = b; otherwise the cases order themselves *)
  destruct (Z.eq_dec a b) as [->|]; [lia|].
  destruct (chop_round_nonneg_cases a ltac:(lia)) as [[-> ?]|[-> ?]];
  destruct (chop_round_nonneg_cases b ltac:(lia)) as [[-> ?]|[-> ?]];
  unfold PREC, HALF in *; lia.
Qed.

Lemma chop_round_mult k : chop_round (k * PREC) = k.
Proof.
  assert (N : forall j, chop_round_nonneg (j * PREC) = j).
  { intros j. unfold chop_round_nonneg. rewrite Z.quot_mul, Z.rem_mul by discriminate. reflexivity. }
  unfold chop_round. pose proof PREC_pos. destruct (Z.ltb_spec (k * PREC) 0).
  - rewrite <- Z.mul_opp_l, N. lia.
  - apply N.
Qed.

Lemma dmul_comm a b : dmul a b = dmul b a.
Proof. unfold dmul. now rewrite Z.mul_comm. Qed.

Lemma dmul_int_l i x : dmul (i * PREC) x = i * x.
Proof. unfold dmul. replace (i * PREC * x) with (i * x * PREC) by ring. apply chop_round_mult. Qed.

Lemma dmul_int_r x i : dmul x (i * PREC) = i * x.
Proof. rewrite dmul_comm. apply dmul_int_l. Qed.

Lemma dmul_one_l x : dmul PREC x = x.
Proof. rewrite <- (Z.mul_1_l x) at 2. apply (dmul_int_l 1). Qed.

Lemma dmul_one_r x : dmul x PREC = x.
Proof. rewrite dmul_comm. apply dmul_one_l. Qed.

Lemma dmul_bounds a b : 0 <= a -> 0 <= b ->
  0 <= dmul a b /\ a * b - HALF <= dmul a b * PREC <= a * b + HALF.
Proof.
  intros Ha Hb. destruct (chop_round_bounds (a * b)) as [B N]; [apply Z.mul_nonneg_nonneg; assumption|].
  split; assumption.
Qed.

Lemma dmul_nonneg a b : 0 <= a -> 0 <= b -> 0 <= dmul a b.
Proof. intros Ha Hb. apply dmul_bounds; assumption. Qed.

Lemma dmul_mono a b c d : 0 <= a <= c -> 0 <= b <= d -> dmul a b <= dmul c d.
Proof. intros H1 H2. apply chop_round_mono. nia. Qed.

Lemma dmul_le_l x d : 0 <= x -> 0 <= d <= PREC -> 0 <= dmul x d <= x.
Proof.
  intros Hx Hd. split; [apply dmul_nonneg; lia|].
  rewrite <- (dmul_one_r x) at 2. apply dmul_mono; lia.
Qed.

Lemma dmul_ge_one a b : PREC <= a -> PREC <= b -> PREC <= dmul a b.
Proof.
  intros Ha Hb. pose proof PREC_pos. rewrite <- (dmul_one_r PREC) at 1. apply dmul_mono; lia.
Qed.

Lemma dmul_nonpos_l a b : a <= 0 -> 0 <= b -> dmul a b <= 0.
Proof.
  intros Ha Hb. unfold dmul, chop_round. destruct (Z.ltb_spec (a * b) 0).
  - destruct (chop_round_bounds (- (a * b))) as [_ B]; [lia|].
    rewrite chop_round_nonneg_eq in B by lia. lia.
  - replace (a * b) with 0 by nia. discriminate.
Qed.

Lemma dquo_bounds a b : 0 <= a -> 0 < b ->
  0 <= dquo a b /\
  a * PREC * PREC - b - HALF * b < dquo a b * PREC * b <= a * PREC * PREC + HALF * b.
Proof.
  intros Ha Hb. unfold dquo. pose proof PREC_pos.
  set (n := a * PREC * PREC). assert (Hn : 0 <= n) by (unfold n; nia).
  pose proof (Z.quot_rem' n b). pose proof (Z.rem_bound_pos n b Hn Hb).
  destruct (chop_round_bounds (Z.quot n b)) as [[B1 B2] B3]; [apply Z.quot_pos; lia|].
  split; [exact B3|]. nia.
Qed.

Lemma dquo_half a b : 0 <= a -> 0 < b -> 0 <= dquo a b /\ 2 * (dquo a b * b) <= 2 * (a * PREC) + b.
Proof.
  intros Ha Hb. destruct (dquo_bounds a b Ha Hb) as (Q0 & _ & Q). split; [exact Q0|].
  apply (Z.mul_le_mono_pos_r _ _ PREC PREC_pos). pose proof HALF_PREC. lia.
Qed.

Lemma dquo_nonneg a b : 0 <= a -> 0 < b -> 0 <= dquo a b.
Proof. intros Ha Hb. apply dquo_bounds; assumption. Qed.

Lemma dquo_mono_ratio a b c d : 0 <= a -> 0 < b -> 0 <= c -> 0 < d ->
  a * d <= c * b -> dquo a b <= dquo c d.
Proof.
  intros Ha Hb Hc Hd H. unfold dquo. pose proof PREC_pos.
  set (n := a * PREC * PREC). set (m := c * PREC * PREC).
  assert (0 <= n) by (unfold n; nia). assert (0 <= m) by (unfold m; nia).
  assert (n * d <= m * b) by (unfold n, m; nia).
  pose proof (Z.quot_rem' n b). pose proof (Z.rem_bound_pos n b ltac:(lia) Hb).
  apply chop_round_mono. split; [apply Z.quot_pos; lia|].
  apply Z.quot_le_lower_bound; [lia|]. apply Z.mul_le_mono_pos_l with (p := b); [lia|]. nia.
Qed.

Lemma dquo_mono a b c d : 0 <= a <= c -> 0 < d <= b -> dquo a b <= dquo c d.
Proof. intros H1 H2. apply dquo_mono_ratio; nia. Qed.

Lemma dquo_exact a b k : b <> 0 -> a * PREC = k * b -> dquo a b = k.
Proof.
  intros Hb E. unfold dquo. replace (a * PREC * PREC) with (k * PREC * b) by (rewrite E; ring).
  rewrite Z.quot_mul by exact Hb. apply chop_round_mult.
Qed.

Lemma dquo_self x : x <> 0 -> dquo x x = PREC.
Proof. intros Hx. apply dquo_exact; [exact Hx|ring]. Qed.

Lemma dquo_one_r a : dquo a PREC = a.
Proof. apply dquo_exact; [discriminate|reflexivity]. Qed.

Lemma dquo_le_one a b : 0 <= a <= b -> 0 < b -> 0 <= dquo a b <= PREC.
Proof.
  intros Ha Hb. split; [apply dquo_nonneg; lia|].
  rewrite <- (dquo_self b) by lia. apply dquo_mono; lia.
Qed.

Lemma dquo_ge_one a b : 0 < b <= a -> PREC <= dquo a b.
Proof. intros H. rewrite <- (dquo_self b) by lia. apply dquo_mono; lia. Qed.

Lemma dquo_ge_l x d : 0 <= x -> 0 < d <= PREC -> x <= dquo x d.
Proof. intros Hx Hd. rewrite <- (dquo_one_r x) at 1. apply dquo_mono; lia. Qed.

Lemma trunc_int_bounds d : 0 <= d -> 0 <= trunc_int d /\ d - PREC < trunc_int d * PREC <= d.
Proof. intros H. destruct (chop_trunc_bounds d H). split; assumption. Qed.

Lemma trunc_int_mult n : trunc_int (n * PREC) = n.
Proof. apply Z.quot_mul. discriminate. Qed.

Lemma trunc_int_nonpos d : d <= 0 -> trunc_int d <= 0.
Proof.
  intros H. unfold trunc_int, chop_trunc. rewrite <- (Z.opp_involutive d), Z.quot_opp_l by discriminate.
  assert (0 <= Z.quot (- d) PREC) by (apply Z.quot_pos; [lia|reflexivity]). lia.
Qed.

Lemma trunc_int_pos_le d : 0 < trunc_int d -> trunc_int d * PREC <= d.
Proof.
  intros H. destruct (Z_le_gt_dec 0 d) as [Hd|Hd]; [apply trunc_int_bounds, Hd|].
  pose proof (trunc_int_nonpos d). lia.
Qed.

Lemma dceil_trunc d : 0 <= d -> d <= trunc_int (dceil d) * PREC.
Proof.
  intros Hd. unfold dceil, trunc_int, chop_trunc. pose proof (Z.quot_rem' d PREC).
  assert (0 <= Z.rem d PREC < PREC) by (apply Z.rem_bound_pos; [lia|reflexivity]).
  destruct (Z.ltb_spec 0 (Z.rem d PREC)); rewrite Z.quot_mul by discriminate; lia.
Qed.

Lemma dceil_trunc_least d a : 0 <= d -> d <= a * PREC -> trunc_int (dceil d) <= a.
Proof.
  intros Hd Ha. unfold dceil, trunc_int, chop_trunc. pose proof (Z.quot_rem' d PREC).
  assert (0 <= Z.rem d PREC < PREC) by (apply Z.rem_bound_pos; [lia|reflexivity]).
  destruct (Z.ltb_spec 0 (Z.rem d PREC)); rewrite Z.quot_mul by discriminate; nia.
Qed.
