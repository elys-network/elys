(* Inversion of the result monad, and the two ways a ledger machine is lifted to histories:
   a list of steps run inside the monad (all or nothing), and a fold of whole transactions. *)
From Coq Require Import ZArith List.
From Elys Require Import Base.Res.
Import ListNotations.

Lemma bind_ok {A B} (r : res A) (f : A -> res B) v :
  bind r f = Ok v -> exists a, r = Ok a /\ f a = Ok v.
Proof. destruct r; cbn; intros H; try discriminate. eauto. Qed.

Lemma guard_ok {A} b c (k : res A) v : guard b c k = Ok v -> b = true /\ k = Ok v.
Proof. destruct b; cbn; intros H; [auto|discriminate]. Qed.

Lemma guard_lt {A} x y c (k : res A) v : guard (x <? y)%Z c k = Ok v -> (x < y)%Z /\ k = Ok v.
Proof. intros H. apply guard_ok in H as [C H]. apply Z.ltb_lt in C. auto. Qed.

Lemma guard_le {A} x y c (k : res A) v : guard (x <=? y)%Z c k = Ok v -> (x <= y)%Z /\ k = Ok v.
Proof. intros H. apply guard_ok in H as [C H]. apply Z.leb_le in C. auto. Qed.

Lemma bind_ext {A B} (r : res A) (f g : A -> res B) : (forall a, f a = g a) -> bind r f = bind r g.
Proof. intros H. destruct r; cbn; [apply H|reflexivity|reflexivity]. Qed.

Lemma bind_unit_r {A} (r : res A) : bind r (fun x => Ok x) = r.
Proof. destruct r; reflexivity. Qed.

(* [injection] on such an equation would first normalise both sides, which for results of the
   fixed-point functions are large terms *)
Lemma ok_pair_inv {A B} (x a : A) (y b : B) : Ok (x, y) = Ok (a, b) -> a = x /\ b = y.
Proof. intros H. injection H. auto. Qed.

Lemma run_tx_rel {S} (R : S -> S -> Prop) (h : S -> res S) s :
  R s s -> (forall s', h s = Ok s' -> R s s') -> R s (run_tx h s).
Proof. intros Hr Hh. unfold run_tx. destruct (h s); auto. Qed.

Lemma run_tx_failed {S} (h : S -> res S) s : (forall s', h s <> Ok s') -> run_tx h s = s.
Proof. intros H. unfold run_tx. destruct (h s) as [s'| |]; [destruct (H s' eq_refl)|reflexivity..]. Qed.

Section Histories.
  Context {S O : Type} (R : S -> S -> Prop) (Q : O -> Prop).
  Hypothesis R_refl : forall s, R s s.
  Hypothesis R_trans : forall s1 s2 s3, R s1 s2 -> R s2 s3 -> R s1 s3.

  (* [steps] is any function with the equations of "run the list inside the monad": every model's
     own Fixpoint satisfies them by [eq_refl] *)
  Lemma steps_rel (step : S -> O -> res S) (steps : S -> list O -> res S) :
    (forall s, steps s [] = Ok s) ->
    (forall s o l, steps s (o :: l) = bind (step s o) (fun s1 => steps s1 l)) ->
    (forall s o s', Q o -> step s o = Ok s' -> R s s') ->
    forall l s s', Forall Q l -> steps s l = Ok s' -> R s s'.
  Proof.
    intros Hnil Hcons Hstep. induction l as [|o l IH]; intros s s' Hl H.
    - rewrite Hnil in H. injection H as <-. apply R_refl.
    - rewrite Hcons in H. apply bind_ok in H. destruct H as (s1 & H1 & H2).
      inversion Hl; subst. eauto.
  Qed.

  Lemma fold_rel (f : S -> O -> S) :
    (forall s o, Q o -> R s (f s o)) -> forall l s, Forall Q l -> R s (fold_left f l s).
  Proof.
    intros Hf. induction l as [|o l IH]; intros s Hl; cbn; [apply R_refl|].
    inversion Hl; subst. eauto.
  Qed.

  Lemma execs_rel (step : S -> O -> res S) :
    (forall s o s', Q o -> step s o = Ok s' -> R s s') ->
    forall h s, Forall Q h -> R s (fold_left (fun s o => run_tx (fun s => step s o) s) h s).
  Proof. intros Hstep. apply fold_rel. intros s o Ho. apply run_tx_rel; eauto. Qed.

  Lemma txs_rel (step : S -> O -> res S) (steps : S -> list O -> res S) :
    (forall s, steps s [] = Ok s) ->
    (forall s o l, steps s (o :: l) = bind (step s o) (fun s1 => steps s1 l)) ->
    (forall s o s', Q o -> step s o = Ok s' -> R s s') ->
    forall h s, Forall (Forall Q) h -> R s (fold_left (fun s l => run_tx (fun s => steps s l) s) h s).
  Proof.
    intros Hnil Hcons Hstep h. induction h as [|l h IH]; intros s Hh; cbn; [apply R_refl|].
    inversion Hh; subst. eapply R_trans; [|apply IH; assumption].
    apply run_tx_rel; [apply R_refl|]. intros s'. apply (steps_rel step); assumption.
  Qed.
End Histories.

Lemma steps_inv {S O} (P : S -> Prop) (Q : O -> Prop) step (steps : S -> list O -> res S) :
  (forall s, steps s [] = Ok s) ->
  (forall s o l, steps s (o :: l) = bind (step s o) (fun s1 => steps s1 l)) ->
  (forall s o s', Q o -> P s -> step s o = Ok s' -> P s') ->
  forall l s s', Forall Q l -> P s -> steps s l = Ok s' -> P s'.
Proof.
  intros Hnil Hcons Hstep l s s' Hl Hs H. revert Hs.
  apply (steps_rel (fun s s' => P s -> P s') Q) with (step := step) (steps := steps) (l := l); eauto.
Qed.

Lemma fold_inv {S O} (P : S -> Prop) (Q : O -> Prop) (f : S -> O -> S) :
  (forall s o, Q o -> P s -> P (f s o)) -> forall l s, Forall Q l -> P s -> P (fold_left f l s).
Proof. intros Hf l s Hl. apply (fold_rel (fun s s' => P s -> P s') Q); eauto. Qed.

Lemma execs_inv {S O} (P : S -> Prop) (Q : O -> Prop) (step : S -> O -> res S) :
  (forall s o s', Q o -> P s -> step s o = Ok s' -> P s') ->
  forall h s, Forall Q h -> P s -> P (fold_left (fun s o => run_tx (fun s => step s o) s) h s).
Proof. intros Hstep. apply (execs_rel (fun s s' => P s -> P s') Q); eauto. Qed.

Lemma txs_inv {S O} (P : S -> Prop) (Q : O -> Prop) step (steps : S -> list O -> res S) :
  (forall s, steps s [] = Ok s) ->
  (forall s o l, steps s (o :: l) = bind (step s o) (fun s1 => steps s1 l)) ->
  (forall s o s', Q o -> P s -> step s o = Ok s' -> P s') ->
  forall h s, Forall (Forall Q) h -> P s -> P (fold_left (fun s l => run_tx (fun s => steps s l) s) h s).
Proof. intros Hnil Hcons Hstep. apply (txs_rel (fun s s' => P s -> P s') Q) with (step := step); eauto. Qed.

Lemma Forall_all {A} (Q : A -> Prop) l : (forall x, Q x) -> Forall Q l.
Proof. intros H. apply Forall_forall. auto. Qed.

(* a history given by membership, as the frame statements have it *)
Lemma Forall_Forall_in {A} (Q : A -> Prop) (h : list (list A)) :
  (forall l o, In l h -> In o l -> Q o) -> Forall (Forall Q) h.
Proof. intros H. apply Forall_forall. intros l Hl. apply Forall_forall. intros o. exact (H l o Hl). Qed.
